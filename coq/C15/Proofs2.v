(* C15 — the invariant of every schedule. Its part that excludes deadlock says where the tokens in flight between the dispatcher
   and the workers are, F = |tasks channel| + busy workers + |ready channel|:
     - the dispatcher's blocking send `tasks <- ...` always follows a receive from `ready`, so F <= 3*Workers - 1 there and the three
       buffers cannot all be full (that is the deadlock the hand-off without `<-ready` would have);
     - a non-empty backlog (and the wait of the bounded-depth branch) always has a token in flight that will wake the dispatcher. *)
From Coq Require Import List Arith Bool ZArith Lia.
From Verif Require Import C15.Model C15.Proofs.
Import ListNotations.

Definition F (s : st) : nat := length (tasksch s) + busy (ws s) + ready s.
(* [lo]: the tokens the dispatcher needs in flight to be woken (the second point): one is enough, so a backlog counts as
   [Nat.min 1] of its length, which stays arithmetic when the backlog grows or shrinks. [slack]: the places it needs free for its
   blocking send (the first point), out of the 3 * Workers places F can fill: the task channel, the workers themselves and the
   ready channel hold Workers tokens each. *)
Definition lo (p : dpc) (bl : list task) : nat := match p with Main | Got _ => Nat.min 1 (length bl) | WaitFull _ => 1 | _ => 0 end.
Definition slack (p : dpc) : nat := match p with SendBack | SendFull _ => 1 | _ => 0 end.
Definition Tokens (c : cfg) (s : st) : Prop :=
  length (tasksch s) <= W c /\ ready s <= W c /\ lo (pc s) (backlog s) <= F s /\ F s + slack (pc s) <= 3 * W c.

Theorem step_tokens c s a s' : 1 <= W c -> Step c s a s' -> length (ws s) = W c -> Tokens c s -> Tokens c s'.
Proof.
  unfold Tokens, F. intros HW HS L I. pose proof (busy_le_length (ws s)) as BL.
  destruct HS; unfold room in *; destruct s; cbn -[Nat.min Nat.mul] in *; subst; cbn -[Nat.min Nat.mul] in *;
    rewrite ?app_length, ?busy_app, ?busy_cons in *; cbn -[Nat.min Nat.mul] in *; lia.
Qed.

Definition wexit (w : wst) : bool := match w with WExit => true | _ => false end.
Definition done_pc (p : dpc) : bool := match p with SendDone | DEnd => true | _ => false end.
Definition end_pc (p : dpc) : bool := match p with DEnd => true | _ => false end.
Definition Flags (s : st) : Prop :=
  tasks_closed s = done_pc (pc s) /\ sd_returned s = end_pc (pc s) /\ (sd_called s = false -> sd_returned s = false) /\
  in_closed s = sd_called s /\ (done_pc (pc s) = false -> existsb wexit (ws s) = false).

Theorem step_flags c s a s' : Step c s a s' -> Flags s -> Flags s'.
Proof.
  unfold Flags. intros HS I; destruct HS; destruct s; cbn in *; subst; cbn in *; rewrite ?existsb_app in *; cbn in *; try exact I; intuition congruence.
Qed.

(* with no worker nothing would ever wake the dispatcher: the tokens are accounted for when Workers >= 1, as New makes sure *)
Definition Good (c : cfg) (progs : list (list task)) (s : st) : Prop :=
  Counted s /\ Phase s /\ (forall x, cnt x (all_tasks s) = cnt x (concat progs)) /\ Fifo s /\
  length (ws s) = W c /\ Flags s /\ (1 <= W c -> Tokens c s).

Lemma init_good c progs : Good c progs (init c progs).
Proof.
  destruct (idle_pool (W c)) as [B R].
  unfold Good, Counted, Phase, Fifo, Flags, Tokens, F, inflight, all_tasks, held, dbl. cbn -[Nat.mul]. rewrite B, R, repeat_length.
  repeat split; intros; try discriminate; try lia.
  - rewrite app_nil_r. reflexivity.
  - clear. induction (W c); cbn; auto.
Qed.

Theorem reachable_good c progs s : reachable c progs s -> Good c progs s.
Proof.
  induction 1 as [|s a s' _ (IC & IP & IT & IF & IL & IG & IK) H]; [apply init_good|]. apply step_Step in H.
  pose proof (step_phase c s a s' H IP) as IP'.
  split; [eapply step_counted; eassumption|]. split; [exact IP'|].
  split; [intro x; rewrite <- IT; apply (step_conserves c s a s' x H)|]. split; [eapply step_fifo; eassumption|].
  split; [rewrite <- IL; eapply step_pool; eassumption|]. split; [eapply step_flags; eassumption|].
  intro HW. eapply step_tokens; eauto.
Qed.

Theorem reachable_inv c progs s : reachable c progs s ->
  Counted s /\ Phase s /\ forall x, cnt x (all_tasks s) = cnt x (concat progs).
Proof. intro R. destruct (reachable_good c progs s R) as (A & B & C & _). auto. Qed.

Theorem ended_all_finished c progs s : reachable c progs s -> pc s = DEnd -> forall x, cnt x (finished s) = cnt x (concat progs).
Proof.
  intros R P x. destruct (reachable_good c progs s R) as (IC & (_ & _ & I3 & I4 & I5) & IT & _).
  rewrite <- IT. rewrite P in *. destruct (I3 eq_refl) as [Q C]. specialize (I4 C). specialize (I5 eq_refl).
  unfold Counted, inflight, held, dbl in IC. rewrite P in IC. cbn [length] in IC.
  assert (T : tasksch s = []) by (apply length_zero_iff_nil; lia).
  assert (B : running (ws s) = []) by (apply busy_zero_running; lia).
  unfold all_tasks, held, dbl. rewrite P, Q, I4, T, B. reflexivity.
Qed.

Theorem workers_bounded c progs s : reachable c progs s -> length (ws s) = W c /\ length (running (ws s)) <= W c.
Proof. intro R. destruct (reachable_good c progs s R) as (_ & _ & _ & _ & L & _). split; [exact L|]. rewrite <- L. apply running_le_length. Qed.

Theorem started_in_submission_order c progs s : reachable c progs s -> exists rest, sent s = started s ++ rest.
Proof. intro R. eexists. apply (reachable_good c progs s R). Qed.
