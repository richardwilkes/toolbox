(* C15 — the states in which no goroutine can move, by cases on the dispatcher's place with the tokens of Proofs2.v; absence of
   deadlock follows. *)
From Coq Require Import List Arith Bool ZArith Lia.
From Verif Require Import C15.Model C15.Proofs C15.Proofs2.
Import ListNotations.

Definition internal (s : st) (a : act) : bool :=
  match a with ARelease _ | AAllow _ => false | AShutdown => sd_called s | _ => true end.
Definition quiescent (c : cfg) (s : st) : Prop := forall a, internal s a = true -> step c s a = None.
Definition let_go (s : st) : Prop := forall t, In (Running t) (ws s) -> existsb (Nat.eqb t) (released s) = true.

(* a pool whose workers are all idle, each of them showing [A], or signalling, each showing [B] *)
Lemma busy_cases (A B : Prop) l : (forall w, In w l -> (w = Idle /\ A) \/ (w = SendReady /\ B)) ->
  (busy l = 0 \/ B) /\ (busy l = length l \/ A).
Proof.
  induction l as [|w l IH]; intro H; [split; left; reflexivity|]. rewrite busy_cons. cbn [length].
  destruct (IH (fun w' IN => H w' (or_intror IN))) as [I1 I2]. destruct (H w (or_introl eq_refl)) as [[-> HA]|[-> HB]]; cbn [wbusy Nat.add].
  - split; [exact I1|right; exact HA].
  - split; [right; exact HB|]. destruct I2 as [->|HA]; [left; reflexivity|right; exact HA].
Qed.

Section Pool.
Variables (c : cfg) (s : st).
Hypotheses (Q : quiescent c s) (LG : let_go s) (FL : Flags s) (OP : done_pc (pc s) = false).
Lemma pool_stuck w : In w (ws s) -> (w = Idle /\ length (tasksch s) = 0) \/ (w = SendReady /\ W c <= ready s).
Proof.
  intro IN. destruct FL as (TC & _ & _ & _ & NX). destruct (In_nth_error _ _ IN) as [i E].
  pose proof (Q (AWorker i) eq_refl) as QW. cbn [step] in QW. rewrite E, TC, OP in QW. destruct w as [|t| |].
  - left. destruct (tasksch s); [auto|discriminate].
  - rewrite (LG t IN) in QW. discriminate.
  - right. destruct (Nat.ltb_spec (ready s) (W c)); [discriminate|auto].
  - assert (X : existsb wexit (ws s) = true) by (apply existsb_exists; exists WExit; auto). rewrite (NX OP) in X. discriminate.
Qed.
(* a busy worker waits for room in the ready channel, an idle one for a task *)
Lemma pool_count : (busy (ws s) = 0 \/ W c <= ready s) /\ (busy (ws s) = length (ws s) \/ length (tasksch s) = 0).
Proof. apply busy_cases. exact pool_stuck. Qed.
End Pool.

Definition acks (p : dpc) : bool := match p with Main | WaitFull _ | Drain _ | WaitAll => true | _ => false end.
Lemma ack_stuck c s : step c s ADispReady = None -> acks (pc s) = true -> ready s = 0.
Proof. cbn [step]. destruct (ready s); [reflexivity|]. destruct (pc s); discriminate. Qed.
Lemma send_stuck {A} c s (x : A) : (if length (tasksch s) <? W c then Some x else None) = None -> W c <= length (tasksch s).
Proof. destruct (Nat.ltb_spec (length (tasksch s)) (W c)); [discriminate|trivial]. Qed.

(* Elsewhere than in the idle select and after the end somebody can move: a token is in flight that wakes the dispatcher
   (WaitFull, Drain, WaitAll), or the three buffers cannot all be full (SendFull, SendBack). *)
Theorem quiescent_states c progs s : 1 <= W c -> 1 <= Cin c -> reachable c progs s -> let_go s -> quiescent c s ->
  (sd_called s = true -> sd_returned s = true /\ pc s = DEnd) /\
  (sd_called s = false ->
     pc s = Main /\ inq s = [] /\ backlog s = [] /\ tasksch s = [] /\ busy (ws s) = 0 /\ ready s = 0 /\ received s = processed s /\
     forall i t r, nth_error (subs s) i = Some (t :: r) -> allowed s <= t).
Proof.
  intros HW HC R LG Q.
  destruct (reachable_good c progs s R) as (IC & (P1 & _ & P3 & _ & _) & _ & _ & L & FL & TK). specialize (TK HW).
  pose proof (pool_count c s Q LG FL) as PC.
  pose proof (Q ADispIn eq_refl) as QI. pose proof (ack_stuck c s (Q ADispReady eq_refl)) as RD. pose proof (Q ADisp eq_refl) as QD.
  destruct FL as (_ & F2 & _ & F4 & _). destruct TK as (_ & _ & T3 & T4). unfold Counted, inflight, held, dbl in IC. unfold F in T3, T4.
  cbn [step] in QI, QD. destruct (pc s) eqn:P; cbn [done_pc lo slack length acks] in *; try specialize (RD eq_refl); try specialize (PC eq_refl).
  - destruct (inq s) as [|t r] eqn:QQ; [|discriminate]. destruct (in_closed s) eqn:C; [discriminate|].
    assert (T : tasksch s = []) by (apply length_zero_iff_nil; lia). assert (BK : backlog s = []) by (apply length_zero_iff_nil; lia).
    rewrite T, BK in IC. cbn [length] in IC. split; [congruence|]. intros _. repeat split; auto; try lia.
    intros i t r E. pose proof (Q (ASub i) eq_refl) as QS. cbn [step] in QS. rewrite E, QQ, C in QS. cbn [length negb] in QS.
    destruct (Nat.ltb_spec 0 (Cin c)); [|lia]. destruct (Nat.ltb_spec t (allowed s)); [discriminate|assumption].
  - exfalso. destruct (match backlog s with [] => _ | _ => false end); [discriminate|]. destruct (_ || _); discriminate.
  - exfalso. lia.
  - exfalso. assert (T : W c <= length (tasksch s)) by (destruct (backlog s); eapply send_stuck; eassumption). lia.
  - exfalso. destruct (backlog s) eqn:BK; [discriminate|]. pose proof (send_stuck c s _ QD) as T. lia.
  - exfalso. destruct rest as [|t r]; [discriminate|]. pose proof (send_stuck c s _ QD) as T. lia.
  - exfalso. assert (E : received s = processed s) by lia. rewrite E, Nat.eqb_refl in QD. discriminate.
  - discriminate.
  - exfalso. destruct (P3 eq_refl) as [_ C]. assert (SC : sd_called s = true) by congruence.
    pose proof (Q AShutdown SC) as QS. cbn [step] in QS. rewrite SC, P, F2 in QS. discriminate.
  - destruct (P3 eq_refl) as [_ C]. split; [auto|congruence].
  - contradiction.
Qed.

(* the runner's list holds every goroutine that can move, so quiescence is decided by trying its members *)
Lemma internal_acts_internal c s a : In a (internal_acts c s) -> internal s a = true.
Proof.
  unfold internal_acts. rewrite !in_app_iff, !in_map_iff. intros [[<-|[<-|[<-|[]]]]|[(i & <- & _)|[(i & <- & _)|IN]]]; try reflexivity.
  destruct (sd_called s) eqn:SC; [|destruct IN]. destruct IN as [<-|[]]. exact SC.
Qed.
Lemma enabled_in_internal_acts c s a s' : length (ws s) = W c -> internal s a = true -> step c s a = Some s' -> In a (internal_acts c s).
Proof.
  intros L IA ST. unfold internal_acts. rewrite !in_app_iff, !in_map_iff. destruct a; cbn [internal] in IA; try discriminate; cbn [step] in ST.
  - right; right; left. exists i. split; [reflexivity|]. apply in_seq. destruct (nth_error (subs s) i) eqn:E; [|discriminate].
    assert (i < length (subs s)) by (apply nth_error_Some; congruence). lia.
  - right; right; right. rewrite IA. left. reflexivity.
  - left. cbn. auto.
  - left. cbn. auto.
  - left. cbn. auto.
  - right; left. exists i. split; [reflexivity|]. apply in_seq. destruct (nth_error (ws s) i) eqn:E; [|discriminate].
    assert (i < length (ws s)) by (apply nth_error_Some; congruence). lia.
Qed.
Lemma first_step_none c s : forall l, first_step c s l = None -> forall a, In a l -> step c s a = None.
Proof. induction l as [|b l IH]; intros H a IN; [destruct IN|]. cbn [first_step] in H. destruct (step c s b) eqn:E; [discriminate|]. destruct IN as [<-|IN]; [exact E|apply IH; assumption]. Qed.
Lemma first_step_quiescent c s : length (ws s) = W c -> first_step c s (internal_acts c s) = None -> quiescent c s.
Proof.
  intros L H a IA. destruct (step c s a) eqn:ST; [|reflexivity].
  rewrite (first_step_none c s _ H a (enabled_in_internal_acts c s a _ L IA ST)) in ST. discriminate.
Qed.

Theorem shutdown_never_stuck c progs s : 1 <= W c -> 1 <= Cin c -> reachable c progs s -> let_go s ->
  sd_called s = true -> sd_returned s = false -> exists a, internal s a = true /\ step c s a <> None.
Proof.
  intros HW HC R LG SC SR. destruct (first_step c s (internal_acts c s)) as [s'|] eqn:E.
  - destruct (first_step_some c s _ _ E) as (a & IN & ST). exists a. split; [apply (internal_acts_internal c s a IN)|congruence].
  - exfalso. apply first_step_quiescent in E; [|apply (workers_bounded c progs s R)].
    destruct (quiescent_states c progs s HW HC R LG E) as [A _]. destruct (A SC) as [B _]. congruence.
Qed.
Theorem idle_means_all_accepted_done c progs s : 1 <= W c -> 1 <= Cin c -> reachable c progs s -> let_go s -> quiescent c s -> sd_called s = false ->
  forall x, cnt x (finished s) + cnt x (concat (subs s)) = cnt x (concat progs).
Proof.
  intros HW HC R LG Q SC x. destruct (quiescent_states c progs s HW HC R LG Q) as [_ A]. destruct (A SC) as (P & QQ & BK & T & B & RD & _).
  destruct (reachable_inv c progs s R) as (_ & _ & IT). rewrite <- IT. unfold all_tasks, held, dbl. rewrite P, QQ, BK, T, (busy_zero_running _ B).
  cbn [app]. rewrite ?cnt_app, ?cnt_nil. lia.
Qed.
