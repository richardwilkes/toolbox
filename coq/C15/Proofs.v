(* C15 — one move of the transition system. [Step] lists the moves of [step] one constructor each, with the guards as
   propositions and the list a submitter or worker sits in split around it; [step_Step] shows that every move of [step] is one of
   them (the converse is not needed and not proved). Every fact about a single move is proved by cases on [Step]. *)
From Coq Require Import List Arith Bool ZArith Lia.
From Verif Require Import common.ListFacts C15.Model.
Import ListNotations.

Definition cnt (x : task) (l : list task) := count_occ Nat.eq_dec l x.
Lemma cnt_app x a b : cnt x (a ++ b) = cnt x a + cnt x b. Proof. apply count_occ_app. Qed.
Lemma cnt_cons x y l : cnt x (y :: l) = (if Nat.eq_dec y x then 1 else 0) + cnt x l.
Proof. unfold cnt; cbn. destruct (Nat.eq_dec y x); reflexivity. Qed.
Lemma cnt_nil x : cnt x [] = 0. Proof. reflexivity. Qed.
Arguments cnt : simpl never.

Definition held (s : st) : list task := match pc s with Got t | WaitFull t | SendFull t => [t] | _ => [] end.
Definition dbl (s : st) : list task :=
  match pc s with Drain rest => rest | WaitAll | CloseTasks | SendDone | DEnd | DPanic => [] | _ => backlog s end.
Definition wtasks (w : wst) : list task := match w with Running t => [t] | _ => [] end.
Definition running (l : list wst) : list task := flat_map wtasks l.
Definition all_tasks (s : st) : list task :=
  concat (subs s) ++ inq s ++ held s ++ dbl s ++ tasksch s ++ running (ws s) ++ finished s.

Definition wbusy (w : wst) : nat := match w with Running _ | SendReady => 1 | _ => 0 end.
Definition busy (l : list wst) : nat := fold_right (fun w a => wbusy w + a) 0 l.
Definition inflight (s : st) : nat := length (held s) + length (dbl s) + length (tasksch s) + busy (ws s) + ready s.
Definition Counted (s : st) : Prop := received s = processed s + inflight s.

Definition drained (p : dpc) : bool := match p with Drain _ | WaitAll | CloseTasks | SendDone | DEnd => true | _ => false end.
Definition closing (p : dpc) : bool := match p with CloseTasks | SendDone | DEnd => true | _ => false end.
Definition Phase (s : st) : Prop :=
  pc s <> DPanic /\
  (pc s = SendBack -> backlog s <> []) /\
  (drained (pc s) = true -> inq s = [] /\ in_closed s = true) /\
  (in_closed s = true -> concat (subs s) = []) /\
  (closing (pc s) = true -> received s = processed s).

Definition Fifo (s : st) : Prop := sent s = started s ++ tasksch s ++ dbl s ++ held s ++ inq s.

Lemma running_cons w l : running (w :: l) = wtasks w ++ running l. Proof. reflexivity. Qed.
Arguments busy : simpl never.
Arguments running : simpl never.
Lemma running_app a b : running (a ++ b) = running a ++ running b.
Proof. apply flat_map_app. Qed.
Lemma busy_cons w l : busy (w :: l) = wbusy w + busy l. Proof. reflexivity. Qed.
Lemma busy_app a b : busy (a ++ b) = busy a + busy b.
Proof. unfold busy. induction a as [|w a IH]; cbn [app fold_right]; lia. Qed.
Lemma busy_le_length l : busy l <= length l.
Proof. unfold busy. induction l as [|w l IH]; cbn [fold_right length]; [lia|]. destruct w; cbn [wbusy]; lia. Qed.
Lemma running_le_length l : length (running l) <= length l.
Proof. unfold running. induction l as [|w l IH]; cbn [flat_map length]; [lia|]. rewrite app_length. destruct w; cbn [wtasks length]; lia. Qed.
Lemma busy_zero_running l : busy l = 0 -> running l = [].
Proof.
  unfold busy, running. induction l as [|w l IH]; [reflexivity|]. cbn [fold_right flat_map]. intro H.
  destruct w; cbn [wbusy] in H; try lia; apply IH; lia.
Qed.
Lemma idle_pool n : busy (repeat Idle n) = 0 /\ running (repeat Idle n) = [].
Proof. induction n as [|n [B R]]; [split; reflexivity|]. split; [exact B|exact R]. Qed.

Lemma upd_split {A} (l : list A) i x0 x : nth_error l i = Some x0 -> exists a b, l = a ++ x0 :: b /\ length a = i /\ upd l i x = a ++ x :: b.
Proof.
  intro H. destruct (nth_error_split l i H) as (a & b & -> & <-). exists a, b. split; [reflexivity|]. split; [reflexivity|].
  unfold upd. rewrite firstn_app_exact, skipn_app, Nat.sub_diag, skipn_all. reflexivity.
Qed.

(* the states the moves lead to, as [step] writes them, the fields a move changes first *)
Definition st_sub (s : st) (sb : list (list task)) (t : task) : st :=
  {| subs := sb; inq := inq s ++ [t]; sent := sent s ++ [t];
     in_closed := in_closed s; sd_called := sd_called s; sd_returned := sd_returned s; pc := pc s; backlog := backlog s;
     tasksch := tasksch s; tasks_closed := tasks_closed s; ready := ready s; ws := ws s; received := received s;
     processed := processed s; started := started s; finished := finished s; released := released s; handled := handled s;
     allowed := allowed s |}.
Definition st_shut (s : st) (ic sr : bool) (p : dpc) : st :=
  {| in_closed := ic; sd_called := true; sd_returned := sr; pc := p;
     subs := subs s; inq := inq s; backlog := backlog s; tasksch := tasksch s; tasks_closed := tasks_closed s;
     ready := ready s; ws := ws s; received := received s; processed := processed s; started := started s;
     finished := finished s; released := released s; handled := handled s; allowed := allowed s; sent := sent s |}.
Definition st_recv (s : st) (r : list task) (t : task) : st :=
  {| inq := r; pc := Got t; received := S (received s);
     subs := subs s; in_closed := in_closed s; sd_called := sd_called s; sd_returned := sd_returned s;
     backlog := backlog s; tasksch := tasksch s; tasks_closed := tasks_closed s; ready := ready s; ws := ws s;
     processed := processed s; started := started s; finished := finished s; released := released s; handled := handled s;
     allowed := allowed s; sent := sent s |}.
Definition st_ack (s : st) (rd : nat) (p : dpc) : st :=
  {| pc := p; ready := rd; processed := S (processed s);
     subs := subs s; inq := inq s; in_closed := in_closed s; sd_called := sd_called s; sd_returned := sd_returned s;
     backlog := backlog s; tasksch := tasksch s; tasks_closed := tasks_closed s; ws := ws s; received := received s;
     started := started s; finished := finished s; released := released s; handled := handled s; allowed := allowed s;
     sent := sent s |}.
Definition st_disp (s : st) (p : dpc) (bl tk : list task) : st :=
  {| pc := p; backlog := bl; tasksch := tk;
     subs := subs s; inq := inq s; in_closed := in_closed s; sd_called := sd_called s; sd_returned := sd_returned s;
     tasks_closed := tasks_closed s; ready := ready s; ws := ws s; received := received s; processed := processed s;
     started := started s; finished := finished s; released := released s; handled := handled s; allowed := allowed s;
     sent := sent s |}.
Definition st_close (s : st) : st :=
  {| pc := SendDone; tasks_closed := true;
     subs := subs s; inq := inq s; in_closed := in_closed s; sd_called := sd_called s; sd_returned := sd_returned s;
     backlog := backlog s; tasksch := tasksch s; ready := ready s; ws := ws s; received := received s;
     processed := processed s; started := started s; finished := finished s; released := released s; handled := handled s;
     allowed := allowed s; sent := sent s |}.
Definition st_work (s : st) (wl : list wst) (tk : list task) (rd : nat) (sta fi hd : list task) : st :=
  {| tasksch := tk; ready := rd; ws := wl; started := sta; finished := fi; handled := hd;
     subs := subs s; inq := inq s; in_closed := in_closed s; sd_called := sd_called s; sd_returned := sd_returned s;
     pc := pc s; backlog := backlog s; tasks_closed := tasks_closed s; received := received s; processed := processed s;
     released := released s; allowed := allowed s; sent := sent s |}.
Definition st_env (s : st) (rl : list task) (al : nat) : st :=
  {| released := rl; allowed := al;
     subs := subs s; inq := inq s; in_closed := in_closed s; sd_called := sd_called s; sd_returned := sd_returned s;
     pc := pc s; backlog := backlog s; tasksch := tasksch s; tasks_closed := tasks_closed s; ready := ready s; ws := ws s;
     received := received s; processed := processed s; started := started s; finished := finished s; handled := handled s;
     sent := sent s |}.

Definition room (c : cfg) (s : st) : Prop := length (tasksch s) < W c.

Inductive Step (c : cfg) (s : st) : act -> st -> Prop :=
| S_sub a t r b : subs s = a ++ (t :: r) :: b -> length (inq s) < Cin c -> in_closed s = false -> t < allowed s ->
    Step c s (ASub (length a)) (st_sub s (a ++ r :: b) t)
| S_shut : sd_called s = false -> concat (subs s) = [] -> Step c s AShutdown (st_shut s true false (pc s))
| S_done : sd_called s = true -> pc s = SendDone -> sd_returned s = false -> Step c s AShutdown (st_shut s (in_closed s) true DEnd)
| S_recv t r : pc s = Main -> inq s = t :: r -> Step c s ADispIn (st_recv s r t)
| S_eof : pc s = Main -> inq s = [] -> in_closed s = true -> Step c s ADispIn (set_pc s (Drain (backlog s)))
| S_ack_idle rd : ready s = S rd -> pc s = Main -> backlog s = [] -> Step c s ADispReady (st_ack s rd Main)
| S_ack_back rd b r : ready s = S rd -> pc s = Main -> backlog s = b :: r -> Step c s ADispReady (st_ack s rd SendBack)
| S_ack_full rd t : ready s = S rd -> pc s = WaitFull t -> Step c s ADispReady (st_ack s rd (SendFull t))
| S_ack_drain rd rest : ready s = S rd -> pc s = Drain rest -> Step c s ADispReady (st_ack s rd (Drain rest))
| S_ack_all rd : ready s = S rd -> pc s = WaitAll -> Step c s ADispReady (st_ack s rd WaitAll)
| S_hand t : pc s = Got t -> backlog s = [] -> room c s -> Step c s ADisp (st_disp s Main (backlog s) (tasksch s ++ [t]))
| S_queue t : pc s = Got t -> (length (backlog s) = 0 -> ~ room c s) -> (depth c <? 0)%Z || (Z.of_nat (length (backlog s)) <? depth c)%Z = true ->
    Step c s ADisp (st_disp s Main (backlog s ++ [t]) (tasksch s))
| S_wait t : pc s = Got t -> (length (backlog s) = 0 -> ~ room c s) -> (depth c <? 0)%Z || (Z.of_nat (length (backlog s)) <? depth c)%Z = false ->
    Step c s ADisp (st_disp s (WaitFull t) (backlog s) (tasksch s))
| S_full_nil t : pc s = SendFull t -> backlog s = [] -> room c s -> Step c s ADisp (st_disp s Main [] (tasksch s ++ [t]))
| S_full_cons t b r : pc s = SendFull t -> backlog s = b :: r -> room c s -> Step c s ADisp (st_disp s Main (r ++ [t]) (tasksch s ++ [b]))
| S_back b r : pc s = SendBack -> backlog s = b :: r -> room c s -> Step c s ADisp (st_disp s Main r (tasksch s ++ [b]))
| S_panic : pc s = SendBack -> backlog s = [] -> Step c s ADisp (st_disp s DPanic [] (tasksch s))
| S_drain_nil : pc s = Drain [] -> Step c s ADisp (st_disp s WaitAll (backlog s) (tasksch s))
| S_drain t r : pc s = Drain (t :: r) -> room c s -> Step c s ADisp (st_disp s (Drain r) (backlog s) (tasksch s ++ [t]))
| S_all : pc s = WaitAll -> received s = processed s -> Step c s ADisp (st_disp s CloseTasks (backlog s) (tasksch s))
| S_close : pc s = CloseTasks -> Step c s ADisp (st_close s)
| S_take a b t r : ws s = a ++ Idle :: b -> tasksch s = t :: r ->
    Step c s (AWorker (length a)) (st_work s (a ++ Running t :: b) r (ready s) (started s ++ [t]) (finished s) (handled s))
| S_exit a b : ws s = a ++ Idle :: b -> tasksch s = [] -> tasks_closed s = true ->
    Step c s (AWorker (length a)) (st_work s (a ++ WExit :: b) [] (ready s) (started s) (finished s) (handled s))
| S_finish a b t : ws s = a ++ Running t :: b -> existsb (Nat.eqb t) (released s) = true ->
    Step c s (AWorker (length a)) (st_work s (a ++ SendReady :: b) (tasksch s) (ready s) (started s) (finished s ++ [t])
                                  (if existsb (Nat.eqb t) (panics c) then handled s ++ [t] else handled s))
| S_signal a b : ws s = a ++ SendReady :: b -> ready s < W c ->
    Step c s (AWorker (length a)) (st_work s (a ++ Idle :: b) (tasksch s) (S (ready s)) (started s) (finished s) (handled s))
| S_release t : Step c s (ARelease t) (st_env s (t :: released s) (allowed s))
| S_allow n : Step c s (AAllow n) (st_env s (released s) (Nat.max n (allowed s))).

Lemma forallb_empty_concat (l : list (list task)) : forallb (fun p => match p with [] => true | _ => false end) l = true -> concat l = [].
Proof. induction l as [|[|x a] l IH]; cbn; [reflexivity| |discriminate]. exact IH. Qed.

Lemma hand_guard c s : (match backlog s with [] => length (tasksch s) <? W c | _ => false end) = true <-> backlog s = [] /\ room c s.
Proof. unfold room. destruct (backlog s); [rewrite Nat.ltb_lt; tauto|]. split; [discriminate|intros [B _]; discriminate B]. Qed.

Theorem step_Step c s a s' : step c s a = Some s' -> Step c s a s'.
Proof.
  intro H. destruct a; cbn [step] in H.
  - destruct (nth_error (subs s) i) as [[|t r]|] eqn:E; try discriminate.
    destruct (_ && _) eqn:G in H; [|discriminate]. apply andb_prop in G. destruct G as [G G3]. apply andb_prop in G. destruct G as [G1 G2].
    injection H as <-. destruct (upd_split _ _ _ r E) as (a & b & Es & <- & ->).
    apply (S_sub c s a t r b); [exact Es|apply Nat.ltb_lt, G1|apply negb_true_iff, G2|apply Nat.ltb_lt, G3].
  - destruct (sd_called s) eqn:SC; cbn [negb] in H.
    + destruct (pc s) eqn:P; try discriminate. destruct (sd_returned s) eqn:SR; [discriminate|]. injection H as <-. apply S_done; assumption.
    + destruct (forallb _ _) eqn:G; [|discriminate]. injection H as <-. apply S_shut; [exact SC|apply forallb_empty_concat, G].
  - destruct (pc s) eqn:P; try discriminate. destruct (inq s) as [|t r] eqn:Q.
    + destruct (in_closed s) eqn:G; [|discriminate]. injection H as <-. apply S_eof; assumption.
    + injection H as <-. apply S_recv; assumption.
  - destruct (ready s) as [|rd] eqn:R; [discriminate|]. destruct (pc s) eqn:P; try discriminate; injection H as <-.
    + assert (Q : forall bl, backlog s = bl -> Step c s ADispReady (st_ack s rd (match bl with [] => Main | _ => SendBack end)))
        by (intros [|b r] B; [apply S_ack_idle|eapply S_ack_back]; eassumption).
      apply (Q _ eq_refl).
    + apply S_ack_full; assumption.
    + apply S_ack_drain; assumption.
    + apply S_ack_all; assumption.
  - pose proof (Nat.ltb_spec (length (tasksch s)) (W c)) as RM. fold (room c s) in RM.
    destruct (pc s) eqn:P; try discriminate.
    + destruct (match backlog s with [] => _ | _ => false end) eqn:G in H.
      * injection H as <-. apply hand_guard in G. apply S_hand; [exact P|apply G|apply G].
      * assert (NG : length (backlog s) = 0 -> ~ room c s)
          by (intros B R; apply length_zero_iff_nil in B; rewrite (proj2 (hand_guard c s) (conj B R)) in G; discriminate).
        destruct (_ || _) eqn:D in H; injection H as <-; [apply S_queue|apply S_wait]; assumption.
    + destruct (backlog s) eqn:B; (destruct RM; [|discriminate]); injection H as <-; [apply S_full_nil|apply S_full_cons]; assumption.
    + destruct (backlog s) eqn:B; [injection H as <-; apply S_panic; assumption|].
      destruct RM; [|discriminate]. injection H as <-. apply S_back; assumption.
    + destruct rest as [|t r]; [injection H as <-; apply S_drain_nil; assumption|].
      destruct RM; [|discriminate]. injection H as <-. apply S_drain; assumption.
    + destruct (received s =? processed s) eqn:G; [|discriminate]. injection H as <-. apply S_all; [exact P|apply Nat.eqb_eq, G].
    + injection H as <-. apply S_close, P.
  - destruct (nth_error (ws s) i) as [w0|] eqn:E; [|discriminate].
    assert (U : forall w, exists a b, ws s = a ++ w0 :: b /\ length a = i /\ upd (ws s) i w = a ++ w :: b) by (intro w; apply upd_split, E).
    destruct w0 as [|t| |]; try discriminate.
    + destruct (tasksch s) as [|t r] eqn:T.
      * destruct (tasks_closed s) eqn:G; [|discriminate]. injection H as <-. destruct (U WExit) as (a & b & Ew & <- & ->). rewrite <- G. apply S_exit; assumption.
      * injection H as <-. destruct (U (Running t)) as (a & b & Ew & <- & ->). apply S_take; assumption.
    + destruct (existsb (Nat.eqb t) (released s)) eqn:G; [|discriminate]. injection H as <-. destruct (U SendReady) as (a & b & Ew & <- & ->). apply S_finish; assumption.
    + destruct (ready s <? W c) eqn:G; [|discriminate]. injection H as <-. destruct (U Idle) as (a & b & Ew & <- & ->). apply S_signal; [exact Ew|apply Nat.ltb_lt, G].
  - injection H as <-. apply S_release.
  - injection H as <-. apply S_allow.
Qed.

(* In each proof by cases on the move the state is taken apart into its fields, so that the guards that fix a field
   ([pc s = Got t], [ws s = a ++ Idle :: b], ...) are substituted; what is left is arithmetic or rewriting of lists. *)
Theorem step_counted c s a s' : Step c s a s' -> Counted s -> Counted s'.
Proof.
  unfold Counted, inflight, held, dbl. intros HS I; destruct HS; destruct s; cbn in *; subst; cbn in *;
    rewrite ?app_length, ?busy_app, ?busy_cons in *; cbn in *; lia.
Qed.

Theorem step_phase c s a s' : Step c s a s' -> Phase s -> Phase s'.
Proof.
  unfold Phase. intros HS I; destruct HS; destruct s; cbn in *; subst; cbn in *; try exact I; intuition congruence.
Qed.

Theorem step_conserves c s a s' x : Step c s a s' -> cnt x (all_tasks s') = cnt x (all_tasks s).
Proof.
  unfold all_tasks, held, dbl. intros HS; destruct HS; destruct s; cbn in *; subst; cbn in *;
    rewrite ?concat_app, ?running_app, ?running_cons; cbn; rewrite ?cnt_app, ?cnt_cons, ?cnt_nil, ?cnt_app; lia.
Qed.

Theorem step_fifo c s a s' : Step c s a s' -> Fifo s -> Fifo s'.
Proof.
  unfold Fifo, held, dbl. intros HS I; destruct HS; destruct s; cbn in *; subst; cbn in *; rewrite <- ?app_assoc; cbn; congruence.
Qed.

Theorem step_pool c s a s' : Step c s a s' -> length (ws s') = length (ws s).
Proof. intros HS; destruct HS; destruct s; cbn in *; subst; rewrite ?app_length; reflexivity. Qed.

Inductive reachable (c : cfg) (progs : list (list task)) : st -> Prop :=
| reach_init : reachable c progs (init c progs)
| reach_step s a s' : reachable c progs s -> step c s a = Some s' -> reachable c progs s'.

Lemma first_step_some c s : forall l s', first_step c s l = Some s' -> exists a, In a l /\ step c s a = Some s'.
Proof.
  induction l as [|a l IH]; intros s' H; [discriminate|]. cbn in H. destruct (step c s a) eqn:E.
  - injection H as <-. exists a. split; [left; reflexivity|exact E].
  - destruct (IH s' H) as (b & IN & Hb). exists b. split; [right; exact IN|exact Hb].
Qed.
Lemma quiesce_reachable c progs : forall fuel s, reachable c progs s -> reachable c progs (quiesce fuel c s).
Proof.
  induction fuel as [|f IH]; intros s R; [exact R|]. cbn [quiesce]. destruct (first_step c s (internal_acts c s)) as [s'|] eqn:E; [|exact R].
  apply IH. destruct (first_step_some c s _ _ E) as (a & _ & Ha). eapply reach_step; eauto.
Qed.
Definition script_state (c : cfg) (s : st) (o : sop) : st :=
  quiesce QFUEL c (match o with
                   | SAllow n => match step c s (AAllow n) with Some s' => s' | None => s end
                   | SRel t => match step c s (ARelease t) with Some s' => s' | None => s end
                   | SShutdown => if sd_called s then s else match step c s AShutdown with Some s' => s' | None => s end
                   end).
Lemma step_or_stay_reachable c progs s a : reachable c progs s -> reachable c progs (match step c s a with Some s' => s' | None => s end).
Proof. intro R. destruct (step c s a) eqn:E; [eapply reach_step; eauto|exact R]. Qed.
Lemma script_state_reachable c progs s o : reachable c progs s -> reachable c progs (script_state c s o).
Proof.
  intro R. apply quiesce_reachable. destruct o as [n|t|]; try (apply step_or_stay_reachable, R).
  destruct (sd_called s); [exact R|apply step_or_stay_reachable, R].
Qed.
