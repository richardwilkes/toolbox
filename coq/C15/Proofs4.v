(* C15 — termination: a measure that every move of a goroutine decreases. With the absence of deadlock (Proofs3.v) it bounds
   every schedule after Shutdown, fair or not, and the fuel the quiescence runner of the correspondence check needs. *)
From Coq Require Import List Arith Bool ZArith Lia.
From Verif Require Import C15.Model C15.Proofs C15.Proofs2 C15.Proofs3.
Import ListNotations.

(* M weighs every task by where it is, and the weights fall along its way: 13 before Submit, 12 in the input channel, 11, 10, 9 in
   the dispatcher's hand (Got, WaitFull, SendFull, over Main's 5), 8 in the backlog, 5 in the task channel, 4 more than an idle
   worker while it runs, 3 more while its completion is signalled, 2 in the ready channel; the dispatcher's own progress
   (SendBack one above Main, then Drain down to DEnd) is the rest of pcw. *)
Definition pcw (p : dpc) : nat :=
  match p with
  | Main => 5 | SendBack => 6 | Got _ => 16 | WaitFull _ => 15 | SendFull _ => 14
  | Drain _ => 4 | WaitAll => 3 | CloseTasks => 2 | SendDone => 1 | DEnd => 0 | DPanic => 0
  end.
Definition ww (w : wst) : nat := match w with Idle => 1 | Running _ => 5 | SendReady => 4 | WExit => 0 end.
Fixpoint wsum (l : list wst) : nat := match l with [] => 0 | w :: r => ww w + wsum r end.
Definition M (s : st) : nat :=
  13 * length (concat (subs s)) + 12 * length (inq s) + pcw (pc s) + 8 * length (dbl s) + 5 * length (tasksch s) + wsum (ws s) + 2 * ready s.

Lemma wsum_app a b : wsum (a ++ b) = wsum a + wsum b.
Proof. induction a as [|w a IH]; cbn [app wsum]; lia. Qed.

Theorem internal_step_decreases c s a s' : step c s a = Some s' -> internal s a = true -> M s' < M s.
Proof.
  unfold M, dbl. intros H IA. apply step_Step in H.
  destruct H; destruct s; cbn -[Nat.mul] in *; subst; try discriminate;
    rewrite ?concat_app, ?app_length, ?wsum_app; cbn -[Nat.mul]; rewrite ?app_length; cbn -[Nat.mul]; lia.
Qed.

Inductive isteps (c : cfg) : st -> list act -> st -> Prop :=
| is_nil s : isteps c s [] s
| is_cons s a s1 l s2 : internal s a = true -> step c s a = Some s1 -> isteps c s1 l s2 -> isteps c s (a :: l) s2.

Definition all_released (progs : list (list task)) (s : st) : Prop := forall t, In t (concat progs) -> existsb (Nat.eqb t) (released s) = true.
Lemma released_let_go c progs s : reachable c progs s -> all_released progs s -> let_go s.
Proof.
  intros R AR t IN. apply AR. destruct (reachable_inv c progs s R) as (_ & _ & IT). specialize (IT t).
  apply (count_occ_In Nat.eq_dec). unfold cnt in IT. rewrite <- IT. apply (count_occ_In Nat.eq_dec).
  unfold all_tasks. do 5 (apply in_or_app; right). apply in_or_app. left.
  apply in_flat_map. exists (Running t). split; [exact IN|left; reflexivity].
Qed.
Lemma internal_keeps c s a s' : step c s a = Some s' -> internal s a = true ->
  released s' = released s /\ (sd_called s = true -> sd_called s' = true).
Proof. intros H IA. apply step_Step in H. destruct H; try discriminate; split; trivial. Qed.
Lemma isteps_facts c progs s l s' : isteps c s l s' -> reachable c progs s ->
  reachable c progs s' /\ length l + M s' <= M s /\ released s' = released s /\ (sd_called s = true -> sd_called s' = true).
Proof.
  induction 1 as [s|s a s1 l s2 IA ST _ IH]; intro R; [repeat split; auto; cbn; lia|].
  assert (R1 : reachable c progs s1) by (eapply reach_step; eauto).
  destruct (IH R1) as (A & B & C & D). destruct (internal_keeps c s a s1 ST IA) as [E G].
  pose proof (internal_step_decreases c s a s1 ST IA).
  repeat split; auto; cbn [length]; try lia; try congruence.
Qed.

Theorem shutdown_returns_under_every_schedule c progs s l s' : 1 <= W c -> 1 <= Cin c ->
  reachable c progs s -> sd_called s = true -> all_released progs s -> isteps c s l s' ->
  length l <= M s /\ (quiescent c s' -> sd_returned s' = true /\ pc s' = DEnd /\ forall x, cnt x (finished s') = cnt x (concat progs)).
Proof.
  intros HW HC R SC AR IS. destruct (isteps_facts c progs s l s' IS R) as (R' & LM & RL & SC').
  split; [lia|]. intro Q.
  assert (LG : let_go s') by (apply (released_let_go c progs s' R'); intros t IN; rewrite RL; apply AR, IN).
  destruct (quiescent_states c progs s' HW HC R' LG Q) as [A _]. destruct (A (SC' SC)) as [B C].
  split; [exact B|]. split; [exact C|]. apply (ended_all_finished c progs s' R' C).
Qed.

Theorem quiesce_reaches_quiescence c progs : forall fuel s, reachable c progs s -> M s <= fuel -> quiescent c (quiesce fuel c s).
Proof.
  induction fuel as [|f IH]; intros s R LE.
  - cbn [quiesce]. (* a state with M = 0 cannot move, since every move decreases M *)
    intros a IA. destruct (step c s a) eqn:ST; [|reflexivity]. pose proof (internal_step_decreases c s a s0 ST IA). lia.
  - cbn [quiesce]. destruct (first_step c s (internal_acts c s)) as [s'|] eqn:E.
    + destruct (first_step_some c s _ s' E) as (a & IN & ST). pose proof (internal_acts_internal c s a IN) as IA.
      pose proof (internal_step_decreases c s a s' ST IA).
      apply IH; [eapply reach_step; eauto|lia].
    + apply first_step_quiescent; [|exact E]. apply (workers_bounded c progs s R).
Qed.
