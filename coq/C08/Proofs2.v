From Coq Require Import ZArith List Bool Lia.
From Verif Require Import common.Word64 common.Word64Facts C08.Model C08.Proofs.
Import ListNotations.
Open Scope Z_scope.

Lemma range_mask_bits j last k : 0 <= j -> 0 <= k -> Z.testbit (range_mask j last) k = (j <=? k) && (k <? last).
Proof.
  intros Hj Hk. unfold range_mask. destruct (Z.leb_spec last j).
  - rewrite Z.testbit_0_l. destruct (Z.leb_spec j k), (Z.ltb_spec k last); try reflexivity; lia.
  - assert (E : 2 ^ last - 2 ^ j = Z.shiftl (Z.ones (last - j)) j).
    { rewrite Z.shiftl_mul_pow2 by lia. rewrite Z.ones_equiv. assert (2 ^ last = 2 ^ (last - j) * 2 ^ j) by (rewrite <- Z.pow_add_r by lia; f_equal; lia). lia. }
    rewrite E, Z.shiftl_spec by lia. destruct (Z.leb_spec j k).
    + rewrite Z.testbit_ones_nonneg by lia. cbn [andb]. destruct (Z.ltb_spec (k - j) (last - j)), (Z.ltb_spec k last); try reflexivity; lia.
    + rewrite Z.testbit_neg_r by lia. reflexivity.
Qed.
Lemma w64_mask j last : 0 <= j -> last <= 64 -> w64 (range_mask j last).
Proof.
  intros Hj Hl. unfold w64, range_mask. destruct (Z.leb_spec last j); [lia|].
  assert (0 < 2 ^ j) by (apply Z.pow_pos_nonneg; lia). assert (2 ^ j < 2 ^ last) by (apply Z.pow_lt_mono_r; lia).
  assert (2 ^ last <= 2 ^ 64) by (apply Z.pow_le_mono_r; lia). change (2 ^ 64) with W in *. lia.
Qed.
Lemma max64_mask : 18446744073709551615 = range_mask 0 64. Proof. reflexivity. Qed.

(* the loop adjusts the count by popcounts as it goes, so its specification speaks of the population of the words *)
Definition total (d : list Z) : Z := fold_right (fun w a => pop64 w + a) 0 d.
Lemma total_upd d : forall i x, (i < length d)%nat -> total (upd d i x) = total d - pop64 (nth i d 0) + pop64 x.
Proof.
  induction d as [|y d IH]; intros i x H; [cbn in H; lia|]. destruct i as [|i]; cbn [upd total fold_right nth].
  - lia.
  - fold (total d). fold (total (upd d i x)). rewrite IH by (cbn in H; lia). lia.
Qed.
Lemma total_setw d i x : 0 <= i < Z.of_nat (length d) -> total (setw d i x) = total d - pop64 (word d i) + pop64 x.
Proof. intros H. unfold setw, word. apply total_upd. lia. Qed.
Lemma setw_length d i x : length (setw d i x) = length d.
Proof. unfold setw. generalize (Z.to_nat i). induction d as [|y d IH]; intros [|n]; cbn; try reflexivity. now rewrite IH. Qed.

Section Loop.
Variables (f : Z -> Z -> Z) (i1 i2 sm e : Z).
Definition mask_at (i : Z) := range_mask (if i =? i1 then sm else 0) (if i =? i2 then e mod 64 + 1 else 64).
Lemma loop_mask i j : j = (if i =? i1 then sm else 0) ->
  (if negb (i =? i1) && negb (i =? i2) then MAX64 else range_mask j (if i =? i2 then e mod 64 + 1 else 64)) = mask_at i.
Proof. intros ->. unfold mask_at. destruct (i =? i1), (i =? i2); cbn [negb andb]; try reflexivity. Qed.

Lemma range_loop_spec fuel : forall d c i j, i1 <= i -> j = (if i =? i1 then sm else 0) -> Z.of_nat fuel = i2 - i + 1 -> 0 <= i -> i2 < Z.of_nat (length d) ->
  let r := range_loop fuel f d c i i1 i2 j e in
  (forall w, 0 <= w -> word (fst r) w = if (i <=? w) && (w <=? i2) then f (word d w) (mask_at w) else word d w) /\
  snd r = c + (total (fst r) - total d).
Proof.
  induction fuel as [|fu IH]; intros d c i j Hi Hj Hf H0 Hl; cbn [range_loop].
  - cbn [fst snd]. split; [|lia]. intros w Hw. destruct (Z.leb_spec i w), (Z.leb_spec w i2); cbn [andb]; try reflexivity; lia.
  - destruct (Z.ltb_spec i2 i); [lia|]. rewrite (loop_mask i j Hj).
    set (nw := f (word d i) (mask_at i)). set (d1 := setw d i nw).
    assert (L1 : length d1 = length d) by apply setw_length.
    specialize (IH d1 (c + pop64 nw - pop64 (word d i)) (i + 1) 0 ltac:(lia)).
    destruct IH as (B & C); [destruct (Z.eqb_spec (i + 1) i1); [lia|reflexivity] | lia | lia | rewrite L1; exact Hl |].
    split.
    + intros w Hw. rewrite (B w Hw). unfold d1. rewrite (word_setw d i nw w) by lia.
      destruct (Z.eqb_spec w i) as [->|N].
      * destruct (Z.leb_spec (i + 1) i); [lia|]. cbn [andb]. destruct (Z.leb_spec i i); [|lia]. destruct (Z.leb_spec i i2); [|lia]. reflexivity.
      * destruct (Z.leb_spec (i + 1) w), (Z.leb_spec i w), (Z.leb_spec w i2); cbn [andb]; try reflexivity; lia.
    + rewrite C. unfold d1. rewrite (total_setw d i nw) by lia. lia.
Qed.
End Loop.
Lemma w64_mask_at i1 i2 sm e i : 0 <= sm -> w64 (mask_at i1 i2 sm e i).
Proof. intros Hs. pose proof (Z.mod_pos_bound e 64). apply w64_mask; destruct (_ =? _); lia. Qed.

(* the three range operations run the loop in the same way *)
Definition apply_range (f : Z -> Z -> Z) (b : bs) (lo hi : Z) : bs :=
  let '(d, c) := range_loop (Z.to_nat (hi / 64 - lo / 64 + 1)) f (data b) (cnt b) (lo / 64) (lo / 64) (hi / 64) (lo mod 64) hi in mk d c.
Lemma apply_range_words f b lo hi : 0 <= lo -> lo <= hi -> hi / 64 < len b ->
  let b' := apply_range f b lo hi in
  (forall w, 0 <= w -> word (data b') w =
     if (lo / 64 <=? w) && (w <=? hi / 64) then f (word (data b) w) (mask_at (lo / 64) (hi / 64) (lo mod 64) hi w) else word (data b) w) /\
  cnt b' = cnt b + (total (data b') - total (data b)).
Proof.
  intros H0 H1 Hl. assert (Q : lo / 64 <= hi / 64) by (apply Z.div_le_mono; lia). assert (0 <= lo / 64) by (apply Z.div_pos; lia).
  pose proof (range_loop_spec f (lo / 64) (hi / 64) (lo mod 64) hi (Z.to_nat (hi / 64 - lo / 64 + 1)) (data b) (cnt b) (lo / 64) (lo mod 64)
    ltac:(lia) ltac:(rewrite Z.eqb_refl; reflexivity) ltac:(lia) ltac:(lia) Hl) as (B & C).
  cbv zeta. unfold apply_range. destruct (range_loop _ _ _ _ _ _ _ _ _) as [d c]. split; [exact B | exact C].
Qed.

Lemma order_spec s e : order s e = (Z.min s e, Z.max s e).
Proof. unfold order. destruct (Z.ltb_spec e s); f_equal; lia. Qed.
Lemma set_range_eq b s e : set_range b s e = apply_range (fun o m => Z.lor o m) (ensure b (Z.max s e / 64 + 1)) (Z.min s e) (Z.max s e).
Proof. unfold set_range. rewrite order_spec. reflexivity. Qed.
Lemma flip_range_eq b s e : flip_range b s e = apply_range (fun o m => Z.lxor o m) (ensure b (Z.max s e / 64 + 1)) (Z.min s e) (Z.max s e).
Proof. unfold flip_range. rewrite order_spec. reflexivity. Qed.
(* ClearRange does not grow the set: it stops at the last bit of the capacity *)
Lemma clear_range_eq b s e : clear_range b s e =
  if len b - 1 <? Z.min s e / 64 then b
  else apply_range (fun o m => Z.land o (MAX64 - m)) b (Z.min s e) (Z.min (Z.max s e) (64 * len b - 1)).
Proof.
  unfold clear_range. rewrite order_spec. set (hi := Z.max s e). destruct (len b - 1 <? Z.min s e / 64); [reflexivity|].
  destruct (Z.ltb_spec (len b - 1) (hi / 64)) as [Hc|Hc].
  - assert (64 * len b <= hi) by (pose proof (Z.mul_div_le hi 64); lia).
    rewrite (Z.min_r hi) by lia. replace ((len b - 1 + 1) * 64 - 1) with (64 * len b - 1) by lia. unfold apply_range.
    replace ((64 * len b - 1) / 64) with (len b - 1) by (apply (Z.div_unique_pos _ 64 _ 63); lia). reflexivity.
  - rewrite (Z.min_l hi); [reflexivity|]. pose proof (Z.mod_pos_bound hi 64). pose proof (Z.div_mod hi 64). lia.
Qed.

Lemma clamp_fits n lo hi : lo <= hi -> lo / 64 <= n - 1 -> lo <= Z.min hi (64 * n - 1) /\ Z.min hi (64 * n - 1) / 64 < n.
Proof.
  intros Hl Hn. assert (lo < 64 * n) by (apply Z.nle_gt; intro; assert (n <= lo / 64) by (apply Z.div_le_lower_bound; lia); lia).
  split; [lia | apply Z.div_lt_upper_bound; lia].
Qed.

Definition in_range lo hi k := (lo <=? k) && (k <=? hi).
(* the mask of word q selects the positions 64 * q + t of the range; the words outside lo / 64 .. hi / 64 hold no position of it *)
Lemma mask_at_in_range lo hi q t : 0 <= lo -> 0 <= hi -> 0 <= t < 64 ->
  (if (lo / 64 <=? q) && (q <=? hi / 64) then Z.testbit (mask_at (lo / 64) (hi / 64) (lo mod 64) hi q) t else false) = in_range lo hi (64 * q + t).
Proof.
  intros Hl Hh Ht. destruct (pos_split lo Hl) as (El & _ & Ml). destruct (pos_split hi Hh) as (Eh & _ & Mh).
  unfold mask_at, in_range. rewrite range_mask_bits by (try destruct (_ =? _); lia).
  destruct (Z.leb_spec (lo / 64) q), (Z.leb_spec q (hi / 64)), (Z.leb_spec lo (64 * q + t)), (Z.leb_spec (64 * q + t) hi); cbn [andb];
    try destruct (Z.eqb_spec q (lo / 64)); try destruct (Z.eqb_spec q (hi / 64)); try destruct (Z.leb_spec _ t); try destruct (Z.ltb_spec t _); try reflexivity; lia.
Qed.

Lemma apply_range_mem f g b lo hi : bitwise f g -> 0 <= lo -> lo <= hi -> hi / 64 < len b ->
  agree (apply_range f b lo hi) (fun k => g (mem b k) (in_range lo hi k)).
Proof.
  intros [f_bits g_false] H0 H1 Hl k Hk. destruct (apply_range_words f b lo hi H0 H1 Hl) as [B _]. unfold mem at 1. rewrite B by (apply Z.div_pos; lia).
  destruct (pos_split k Hk) as (E & Hq & Hm). rewrite <- (f_equal (in_range lo hi) E), <- mask_at_in_range by lia.
  destruct ((lo / 64 <=? k / 64) && (k / 64 <=? hi / 64)); [|symmetry; apply g_false].
  pose proof (Z.mod_pos_bound lo 64). rewrite f_bits by (try apply w64_mask_at; lia). reflexivity.
Qed.
Lemma ensure_apply_mem f g b s e : bitwise f g -> 0 <= s -> 0 <= e ->
  agree (apply_range f (ensure b (Z.max s e / 64 + 1)) (Z.min s e) (Z.max s e)) (fun k => g (mem b k) (in_range (Z.min s e) (Z.max s e) k)).
Proof.
  intros Hf Hs He k Hk. pose proof (len_ensure b (Z.max s e / 64 + 1)).
  rewrite (apply_range_mem f g), mem_ensure by (assumption || lia). reflexivity.
Qed.

Theorem mem_set_range b s e : 0 <= s -> 0 <= e -> agree (set_range b s e) (fun k => mem b k || in_range (Z.min s e) (Z.max s e) k).
Proof. rewrite set_range_eq. exact (ensure_apply_mem _ _ b s e bitwise_lor). Qed.
Theorem mem_flip_range b s e : 0 <= s -> 0 <= e -> agree (flip_range b s e) (fun k => xorb (mem b k) (in_range (Z.min s e) (Z.max s e) k)).
Proof. rewrite flip_range_eq. exact (ensure_apply_mem _ _ b s e bitwise_lxor). Qed.
Theorem mem_clear_range b s e : 0 <= s -> 0 <= e -> agree (clear_range b s e) (fun k => mem b k && negb (in_range (Z.min s e) (Z.max s e) k)).
Proof.
  intros Hs He k Hk. rewrite clear_range_eq. set (lo := Z.min s e). set (hi := Z.max s e).
  assert (Hlo : 0 <= lo) by lia. assert (Hlh : lo <= hi) by lia. clearbody lo hi. pose proof (len_nonneg b) as Hn.
  (* a member lies below the capacity, so the range may stop there *)
  assert (clamp : mem b k && negb (in_range lo (Z.min hi (64 * len b - 1)) k) = mem b k && negb (in_range lo hi k)).
  { destruct (Z_lt_le_dec k (64 * len b)); [|rewrite mem_above by assumption; reflexivity].
    unfold in_range. destruct (Z.leb_spec k hi), (Z.leb_spec k (Z.min hi (64 * len b - 1))); try reflexivity; lia. }
  destruct (Z.ltb_spec (len b - 1) (lo / 64)) as [Hm|Hm].
  - rewrite <- clamp. unfold in_range. destruct (Z.leb_spec lo k); cbn [andb negb]; [|symmetry; apply andb_true_r].
    assert (lo / 64 <= k / 64) by (apply Z.div_le_mono; lia). rewrite mem_beyond by lia. reflexivity.
  - rewrite <- clamp. destruct (clamp_fits (len b) lo hi Hlh Hm).
    apply (apply_range_mem _ _ b lo _ bitwise_landnot); assumption.
Qed.
