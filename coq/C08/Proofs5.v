From Coq Require Import ZArith List Bool Lia.
From Verif Require Import C08.Model C08.Proofs C08.Proofs2 C08.Proofs3 C08.Proofs4.
Import ListNotations.
Open Scope Z_scope.

(* the specification: a set of non-negative integers as its characteristic function *)
Definition zset := Z -> bool.
Definition sstep (S : zset) (o : op) : zset :=
  match o with
  | OSet i => fun j => (j =? i) || S j
  | OClear i => fun j => S j && negb (j =? i)
  | OFlip i => fun j => xorb (S j) (j =? i)
  | OSetRange s e => fun j => S j || in_range (Z.min s e) (Z.max s e) j
  | OClearRange s e => fun j => S j && negb (in_range (Z.min s e) (Z.max s e) j)
  | OFlipRange s e => fun j => xorb (S j) (in_range (Z.min s e) (Z.max s e) j)
  | OReset => fun _ => false
  | OLoad d => bitat d
  | OTrim | OEnsure _ | OData | OReload | OCopy | OClone => S
  end.
Definition srun (ops : list op) : zset := fold_left sstep ops (fun _ => false).

Lemma sstep_ext S S' o : (forall j, 0 <= j -> S j = S' j) -> forall j, 0 <= j -> sstep S o j = sstep S' o j.
Proof. intros H j Hj. destruct o; cbn [sstep]; rewrite ?(H j Hj); auto. Qed.
Lemma step_sstep b o : op_ok o -> agree (step b o) (sstep (mem b) o).
Proof.
  intros Ho. destruct o; cbn [step sstep op_ok] in *.
  1-3: auto using mem_set, mem_clear, mem_flip.
  1-3: destruct Ho; auto using mem_set_range, mem_clear_range, mem_flip_range.
  - (* Trim *) apply mem_trim.
  - (* EnsureCapacity *) apply mem_ensure.
  - (* Data *) apply mem_data.
  - (* Reset *) intros j _. apply mem_reset.
  - (* Load *) apply mem_load.
  - (* Load(Data()) *) apply mem_reload.
  - (* Copy *) intros j _. reflexivity.
  - (* Clone *) intros j _. reflexivity.
Qed.
Lemma agree_step b S o : op_ok o -> agree b S -> agree (step b o) (sstep S o).
Proof. intros Ho H j Hj. rewrite (step_sstep b o Ho j Hj). apply sstep_ext; assumption. Qed.
Lemma agree_fold ops : forall b S, Forall op_ok ops -> agree b S -> agree (fold_left step ops b) (fold_left sstep ops S).
Proof. induction ops as [|o ops IH]; intros b S HF H; [exact H|]. inversion_clear HF. apply IH; [|apply agree_step]; assumption. Qed.
Theorem refines ops : Forall op_ok ops -> Inv (run ops) /\ forall j, 0 <= j -> mem (run ops) j = srun ops j.
Proof. intros HF. split; [apply inv_run, HF | apply agree_fold; [exact HF | intros j _; apply mem_empty]]. Qed.
