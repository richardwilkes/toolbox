From Coq Require Import ZArith List Bool Lia.
From Verif Require Import C08.Model C08.Proofs C08.Proofs2 C08.Proofs3.
Import ListNotations.
Open Scope Z_scope.

(* membership read off a bare word list, which is what Load is given: mem b k = bitat (data b) k *)
Definition bitat (d : list Z) (k : Z) : bool := Z.testbit (word d (k / 64)) (k mod 64).
Lemma mem_bitat b k : mem b k = bitat (data b) k. Proof. reflexivity. Qed.
Lemma bitat_at d q t : 0 <= t < 64 -> bitat d (64 * q + t) = Z.testbit (word d q) t.
Proof. exact (mem_at (mk d 0) q t). Qed.
Lemma eqb_want x want : Bool.eqb x want = false -> x = negb want.
Proof. destruct x, want; cbn; congruence. Qed.

(* A search carries what it has passed: every position between the start s of the whole search and the current one reads as not
   wanted. The bit loops are stated about positions of the set, so the word loops hand their hypothesis down and the result up. *)
Lemma up_bit_spec fuel d i want s : forall j, 0 <= j <= 64 -> 64 - j < Z.of_nat fuel -> s <= 64 * i + j ->
  (forall k, s <= k < 64 * i + j -> bitat d k = negb want) ->
  match up_bit fuel (word d i) j want with
  | Some r => s <= 64 * i + r < 64 * i + 64 /\ bitat d (64 * i + r) = want /\ (forall k, s <= k < 64 * i + r -> bitat d k = negb want)
  | None => forall k, s <= k < 64 * i + 64 -> bitat d k = negb want end.
Proof.
  induction fuel as [|f IH]; intros j Hj Hf Hs H; [lia|]. cbn [up_bit]. destruct (Z.leb_spec 64 j); [intros k Hk; apply H; lia|].
  unfold has. rewrite <- (bitat_at d i j) by lia. destruct (Bool.eqb (bitat d (64 * i + j)) want) eqn:E.
  - apply Bool.eqb_prop in E. split; [lia|]. split; [exact E|exact H].
  - apply eqb_want in E. apply IH; [lia|lia|lia|]. intros k Hk. destruct (Z.eq_dec k (64 * i + j)) as [->|]; [exact E|apply H; lia].
Qed.
Lemma down_bit_spec fuel d i want s : forall j, -1 <= j < 64 -> j + 1 < Z.of_nat fuel -> 64 * i + j <= s ->
  (forall k, 64 * i + j < k <= s -> bitat d k = negb want) ->
  match down_bit fuel (word d i) j want with
  | Some r => 64 * i <= 64 * i + r <= s /\ bitat d (64 * i + r) = want /\ (forall k, 64 * i + r < k <= s -> bitat d k = negb want)
  | None => forall k, 64 * i <= k <= s -> bitat d k = negb want end.
Proof.
  induction fuel as [|f IH]; intros j Hj Hf Hs H; [lia|]. cbn [down_bit]. destruct (Z.ltb_spec j 0); [intros k Hk; apply H; lia|].
  unfold has. rewrite <- (bitat_at d i j) by lia. destruct (Bool.eqb (bitat d (64 * i + j)) want) eqn:E.
  - apply Bool.eqb_prop in E. split; [lia|]. split; [exact E|exact H].
  - apply eqb_want in E. apply IH; [lia|lia|lia|]. intros k Hk. destruct (Z.eq_dec k (64 * i + j)) as [->|]; [exact E|apply H; lia].
Qed.

Lemma next_loop_spec fuel d n want s : forall i fb, 0 <= fb < 64 -> n - i < Z.of_nat fuel -> s <= 64 * i + fb ->
  (forall k, s <= k < 64 * i + fb -> bitat d k = negb want) ->
  match next_loop fuel d i fb n want with
  | Some r => s <= r < 64 * n /\ bitat d r = want /\ (forall k, s <= k < r -> bitat d k = negb want)
  | None => forall k, s <= k < 64 * n -> bitat d k = negb want end.
Proof.
  induction fuel as [|f IH]; intros i fb Hfb Hf Hs H; [intros k Hk; apply H; lia|]. cbn [next_loop].
  destruct (Z.leb_spec n i); [intros k Hk; apply H; lia|].
  pose proof (up_bit_spec 65 d i want s fb ltac:(lia) ltac:(lia) Hs H) as U. destruct (up_bit 65 (word d i) fb want) as [j|].
  - destruct U as (A & B & C). replace (i * 64 + j) with (64 * i + j) by lia. split; [lia|]. split; [exact B|exact C].
  - apply IH; [lia|lia|lia|]. intros k Hk. apply U. lia.
Qed.
Lemma prev_loop_spec fuel d want s : forall i fb, 0 <= fb < 64 -> i + 1 < Z.of_nat fuel -> 64 * i + fb <= s ->
  (forall k, 64 * i + fb < k <= s -> bitat d k = negb want) ->
  let r := prev_loop fuel d i fb want in
  (r = -1 /\ forall k, 0 <= k <= s -> bitat d k = negb want) \/
  (0 <= r <= s /\ bitat d r = want /\ forall k, r < k <= s -> bitat d k = negb want).
Proof.
  induction fuel as [|f IH]; intros i fb Hfb Hf Hs H; [left; split; [reflexivity|intros k Hk; apply H; lia]|]. cbn [prev_loop]. cbv zeta.
  destruct (Z.ltb_spec i 0); [left; split; [reflexivity|intros k Hk; apply H; lia]|].
  pose proof (down_bit_spec 65 d i want s fb ltac:(lia) ltac:(lia) Hs H) as U. destruct (down_bit 65 (word d i) fb want) as [j|].
  - destruct U as (A & B & C). right. replace (i * 64 + j) with (64 * i + j) by lia. split; [lia|]. split; [exact B|exact C].
  - apply IH; [lia|lia|lia|]. intros k Hk. apply U. lia.
Qed.

Theorem next_set_spec b s : 0 <= s ->
  let r := next_set b s in
  (r = -1 /\ forall k, s <= k -> mem b k = false) \/ (s <= r /\ mem b r = true /\ forall k, s <= k < r -> mem b k = false).
Proof.
  intros Hs. cbv zeta. unfold next_set. destruct (pos_split s Hs) as (E & Hq & Hm).
  pose proof (next_loop_spec (S (length (data b))) (data b) (len b) true s (s / 64) (s mod 64) Hm ltac:(unfold len; lia) ltac:(lia) ltac:(intros k Hk; lia)) as N.
  destruct (next_loop _ _ _ _ _ _) as [r|].
  - destruct N as (A & B & C). right. split; [lia|]. split; [exact B|exact C].
  - left. split; [reflexivity|]. intros k Hk. destruct (Z_lt_le_dec k (64 * len b)); [apply N; lia|apply mem_above; lia].
Qed.
Theorem next_clear_spec b s : 0 <= s ->
  let r := next_clear b s in s <= r /\ mem b r = false /\ forall k, s <= k < r -> mem b k = true.
Proof.
  intros Hs. cbv zeta. unfold next_clear. destruct (pos_split s Hs) as (E & Hq & Hm).
  pose proof (next_loop_spec (S (length (data b))) (data b) (len b) false s (s / 64) (s mod 64) Hm ltac:(unfold len; lia) ltac:(lia) ltac:(intros k Hk; lia)) as N.
  destruct (next_loop _ _ _ _ _ _) as [r|].
  - destruct N as (A & B & C). split; [lia|]. split; [exact B|exact C].
  - split; [lia|]. split; [apply mem_above; lia|]. intros k Hk. apply N. lia.
Qed.
Theorem previous_set_spec b s : 0 <= s ->
  let r := previous_set b s in
  (r = -1 /\ forall k, 0 <= k <= s -> mem b k = false) \/ (0 <= r <= s /\ mem b r = true /\ forall k, r < k <= s -> mem b k = false).
Proof.
  intros Hs. unfold previous_set. destruct (pos_split s Hs) as (E & Hq & Hm). pose proof (len_nonneg b).
  destruct (Z.ltb_spec (len b - 1) (s / 64)).
  - (* the search starts at the last bit of the capacity: nothing above it is a member *)
    apply (prev_loop_spec _ (data b) true s (len b - 1) 63); [lia | unfold len; lia | lia |]. intros k Hk. apply mem_above. lia.
  - apply (prev_loop_spec _ (data b) true s (s / 64) (s mod 64)); [exact Hm | unfold len in *; lia | lia |]. intros k Hk. lia.
Qed.
Theorem previous_clear_spec b s : 0 <= s ->
  let r := previous_clear b s in
  (r = -1 /\ forall k, 0 <= k <= s -> mem b k = true) \/ (0 <= r <= s /\ mem b r = false /\ forall k, r < k <= s -> mem b k = true).
Proof.
  intros Hs. cbv zeta. unfold previous_clear. destruct (pos_split s Hs) as (E & Hq & Hm). pose proof (len_nonneg b).
  destruct (Z.ltb_spec (len b - 1) (s / 64)).
  - right. split; [lia|]. split; [apply mem_beyond; lia|]. intros k Hk. lia.
  - apply (prev_loop_spec _ (data b) false s (s / 64) (s mod 64)); [exact Hm | unfold len in *; lia | lia |]. intros k Hk. lia.
Qed.
Theorem first_set_spec b : let r := first_set b in
  (r = -1 /\ forall k, 0 <= k -> mem b k = false) \/ (0 <= r /\ mem b r = true /\ forall k, 0 <= k < r -> mem b k = false).
Proof. exact (next_set_spec b 0 ltac:(lia)). Qed.
Theorem last_set_spec b : let r := last_set b in
  (r = -1 /\ forall k, 0 <= k -> mem b k = false) \/ (0 <= r /\ mem b r = true /\ forall k, r < k -> mem b k = false).
Proof.
  cbv zeta. unfold last_set. pose proof (len_nonneg b). destruct (previous_set_spec b (len b * 64) ltac:(lia)) as [[E A]|(A & B & C)].
  - left. split; [exact E|]. intros k Hk. destruct (Z_lt_le_dec k (64 * len b)); [apply A; lia|apply mem_above; lia].
  - right. split; [lia|]. split; [exact B|]. intros k Hk. destruct (Z_lt_le_dec k (64 * len b)); [apply C; lia|apply mem_above; lia].
Qed.

Lemma words_of_mem a b : wfd a -> wfd b -> (forall i, 0 <= i -> bitat a i = bitat b i) -> same_words a b.
Proof.
  intros Wa Wb H w Hw. apply Z.bits_inj'. intros n Hn. destruct (Z_lt_le_dec n 64).
  - rewrite <- !bitat_at by lia. apply H. lia.
  - rewrite !wfd_high by assumption. reflexivity.
Qed.
Lemma forallb_combine_words a : forall b, forallb (fun p => fst p =? snd p) (combine a b) = true <->
  (forall i, (i < Nat.min (length a) (length b))%nat -> nth i a 0 = nth i b 0).
Proof.
  induction a as [|x a IH]; intros b; [cbn; split; [intros _ i Hi; lia|reflexivity]|]. destruct b as [|y b]; [cbn; split; [intros _ i Hi; lia|reflexivity]|].
  cbn [combine forallb fst snd length Nat.min]. rewrite andb_true_iff, IH, Z.eqb_eq. split.
  - intros [E H] [|i] Hi; [exact E|]. cbn [nth]. apply H. lia.
  - intros H. split; [exact (H 0%nat ltac:(lia))|]. intros i Hi. apply (H (S i)). lia.
Qed.
Lemma forallb_skipn_zero a : forall n, forallb (fun w => w =? 0) (skipn n a) = true <-> (forall i, (n <= i)%nat -> nth i a 0 = 0).
Proof.
  induction a as [|x a IH]; intros n.
  - rewrite skipn_nil. cbn. split; [intros _ i _; destruct i; reflexivity|reflexivity].
  - destruct n as [|n].
    + cbn [skipn forallb]. rewrite andb_true_iff, Z.eqb_eq. rewrite (IH 0%nat). split.
      * intros [E H] [|i] _; [exact E|]. cbn [nth]. apply H. lia.
      * intros H. split; [exact (H 0%nat ltac:(lia))|]. intros i _. apply (H (S i)). lia.
    + cbn [skipn]. rewrite IH. split.
      * intros H [|i] Hi; [lia|]. cbn [nth]. apply H. lia.
      * intros H i Hi. apply (H (S i)). lia.
Qed.
Lemma equal_words a b : equal a b = true <-> cnt a = cnt b /\ same_words (data a) (data b).
Proof.
  unfold equal. rewrite !andb_true_iff, forallb_combine_words, !forallb_skipn_zero, Z.eqb_eq. split.
  - intros [[[Hn Hc] Ha] Hb]. split; [exact Hn|]. intros i Hi. unfold word.
    set (n := Z.to_nat i). destruct (Nat.lt_ge_cases n (Nat.min (length (data a)) (length (data b)))) as [L|L]; [apply Hc; exact L|].
    destruct (Nat.le_ge_cases (length (data a)) (length (data b))).
    + rewrite (nth_overflow (data a)) by lia. symmetry. apply Hb. lia.
    + rewrite (nth_overflow (data b)) by lia. apply Ha. lia.
  - intros [Hc Hw]. assert (Hn : forall n, nth n (data a) 0 = nth n (data b) 0).
    { intros n. specialize (Hw (Z.of_nat n) ltac:(lia)). unfold word in Hw. rewrite Nat2Z.id in Hw. exact Hw. }
    repeat split; [exact Hc | intros i _; apply Hn | intros i Hi; rewrite Hn | intros i Hi; rewrite <- Hn]; apply nth_overflow; lia.
Qed.
(* on valid sets, reading the same words and having the same members are one thing, and the counts follow *)
Theorem equal_spec a b : Inv a -> Inv b -> (equal a b = true <-> agree a (mem b)).
Proof.
  intros Ia Ib. rewrite equal_words. split.
  - intros [_ H]. apply same_words_agree, H.
  - intros H. split; [apply (same_count a b Ia Ib H) | apply words_of_mem; [apply Ia | apply Ib | exact H]].
Qed.

Theorem load_data b : Inv b -> let b' := load (snd (get_data b)) in Inv b' /\ agree b' (mem b) /\ count b' = count b.
Proof.
  intros HI. cbv zeta. assert (I' : Inv (load (snd (get_data b)))) by apply inv_load, (inv_trim b HI).
  split; [exact I'|]. split; [apply mem_reload | apply same_count; [exact I' | exact HI | apply mem_reload]].
Qed.
Theorem load_spec d : wfd d -> Inv (load d) /\ agree (load d) (bitat d).
Proof. intros H. split; [apply inv_load, H | apply mem_load]. Qed.
