From Coq Require Import ZArith List Bool Lia.
From Verif Require Import common.Word64 common.Word64Facts C08.Model.
Import ListNotations.
Open Scope Z_scope.

Definition agree (b : bs) (S : Z -> bool) : Prop := forall j, 0 <= j -> mem b j = S j.
(* a word beyond the end reads as 0, so two lists that read the same may differ in length *)
Definition same_words (d d' : list Z) : Prop := forall i, 0 <= i -> word d i = word d' i.

Lemma same_words_agree b b' : same_words (data b) (data b') -> agree b (mem b').
Proof. intros H j Hj. unfold mem. rewrite H by (apply Z.div_pos; lia). reflexivity. Qed.
Lemma agree_trans b b' S : agree b (mem b') -> agree b' S -> agree b S.
Proof. intros H H' j Hj. rewrite H, H' by exact Hj. reflexivity. Qed.

Lemma len_nonneg b : 0 <= len b.
Proof. apply Nat2Z.is_nonneg. Qed.
Lemma word_nil k : word [] k = 0.
Proof. unfold word. destruct (Z.to_nat k); reflexivity. Qed.
Lemma word_beyond d i : Z.of_nat (length d) <= i -> word d i = 0.
Proof. intros H. unfold word. apply nth_overflow. lia. Qed.
Lemma mem_beyond b k : len b <= k / 64 -> mem b k = false.
Proof. intros H. unfold mem. rewrite word_beyond by exact H. apply Z.bits_0. Qed.
Lemma mem_above b k : 64 * len b <= k -> mem b k = false.
Proof. intros H. apply mem_beyond, Z.div_le_lower_bound; lia. Qed.
Lemma state_mem b i : state b i = mem b i.
Proof. unfold state. destruct (Z.leb_spec (len b) (i / 64)); [symmetry; apply mem_beyond; assumption | reflexivity]. Qed.

(* div_mod_parts at 64, in the shape in which mem_at and the search specifications write a position *)
Lemma pos_split s : 0 <= s -> 64 * (s / 64) + s mod 64 = s /\ 0 <= s / 64 /\ 0 <= s mod 64 < 64.
Proof. intros H. destruct (div_mod_parts s 64) as (E & Hm & Hq); lia. Qed.
Lemma mem_at b q t : 0 <= t < 64 -> mem b (64 * q + t) = Z.testbit (word (data b) q) t.
Proof.
  intros Ht. unfold mem. replace ((64 * q + t) / 64) with q by (apply (Z.div_unique_pos _ 64 q t); lia).
  replace ((64 * q + t) mod 64) with t by (apply (Z.mod_unique_pos _ 64 q t); lia). reflexivity.
Qed.

Lemma word_app_zeros d n : same_words (d ++ repeat 0 n) d.
Proof.
  intros i Hi. unfold word. destruct (Nat.lt_ge_cases (Z.to_nat i) (length d)); [now apply app_nth1|].
  rewrite app_nth2, (nth_overflow d) by assumption. apply nth_repeat.
Qed.
Lemma ensure_words b w : same_words (data (ensure b w)) (data b).
Proof. unfold ensure. destruct (len b <? w); [apply word_app_zeros | intros i _; reflexivity]. Qed.
Theorem mem_ensure b w : agree (ensure b w) (mem b).
Proof. apply same_words_agree, ensure_words. Qed.
Theorem count_ensure b w : count (ensure b w) = count b.
Proof. unfold ensure, count. destruct (len b <? w); reflexivity. Qed.
Lemma len_ensure b w : w <= len (ensure b w).
Proof.
  unfold ensure. destruct (Z.ltb_spec (len b) w) as [E|E]; [|exact E]. unfold len in *. cbn [data]. rewrite app_length, repeat_length.
  destruct (Z.ltb_spec (Z.of_nat (length (data b)) * 2) w); lia.
Qed.

Lemma nth_upd d : forall w x i, (w < length d)%nat -> nth i (upd d w x) 0 = if (i =? w)%nat then x else nth i d 0.
Proof.
  induction d as [|y d IH]; intros w x i H; [cbn in H; lia|].
  destruct w, i; cbn; try reflexivity. apply IH. cbn in H. lia.
Qed.
Lemma word_setw d w x i : 0 <= w < Z.of_nat (length d) -> 0 <= i -> word (setw d w x) i = if i =? w then x else word d i.
Proof.
  intros Hw Hi. unfold word, setw. rewrite nth_upd by lia.
  destruct (Nat.eqb_spec (Z.to_nat i) (Z.to_nat w)), (Z.eqb_spec i w); try reflexivity; lia.
Qed.
Lemma mem_setw b w x c j : 0 <= w < len b -> 0 <= j ->
  mem (mk (setw (data b) w x) c) j = if j / 64 =? w then Z.testbit x (j mod 64) else mem b j.
Proof. intros Hw Hj. unfold len in Hw. unfold mem. cbn [data]. rewrite word_setw by (try apply Z.div_pos; lia). destruct (j / 64 =? w); reflexivity. Qed.

Lemma split_index i j : (j =? i) = (j / 64 =? i / 64) && (j mod 64 =? i mod 64).
Proof.
  destruct (Z.eqb_spec j i) as [->|N]; [now rewrite !Z.eqb_refl|].
  destruct (Z.eqb_spec (j / 64) (i / 64)) as [Eq|]; [|reflexivity]. destruct (Z.eqb_spec (j mod 64) (i mod 64)) as [Er|]; [|reflexivity].
  exfalso. apply N. rewrite (Z.div_mod j 64), Eq, Er by lia. symmetry. apply Z.div_mod. lia.
Qed.

Lemma ensure_room b i : i / 64 < len (ensure b (i / 64 + 1)).
Proof. pose proof (len_ensure b (i / 64 + 1)). lia. Qed.

Lemma bitmask_bits k t : 0 <= k -> Z.testbit (bitmask k) t = (t =? k).
Proof. intros Hk. unfold bitmask. rewrite Z.pow2_bits_eqb by exact Hk. apply Z.eqb_sym. Qed.
Lemma w64_bitmask j : 0 <= j < 64 -> w64 (bitmask j).
Proof. apply pow2_w64. Qed.
Lemma landnot_bits o m k : w64 m -> 0 <= k < 64 -> Z.testbit (Z.land o (MAX64 - m)) k = Z.testbit o k && negb (Z.testbit m k).
Proof.
  intros Hm Hk. change (MAX64 - m) with (not64 m).
  rewrite Z.land_spec, not64_bits, (proj2 (Z.ltb_lt k 64)) by (assumption || lia). reflexivity.
Qed.

(* Set, Clear and Flip, of one bit or of a range, combine a word with a 64-bit mask by f, which acts on each bit as the boolean function g *)
Definition bitwise (f : Z -> Z -> Z) (g : bool -> bool -> bool) : Prop :=
  (forall o m k, w64 m -> 0 <= k < 64 -> Z.testbit (f o m) k = g (Z.testbit o k) (Z.testbit m k)) /\ forall y, g y false = y.
Lemma bitwise_lor : bitwise Z.lor orb.
Proof. split; [intros; apply Z.lor_spec | apply orb_false_r]. Qed.
Lemma bitwise_landnot : bitwise (fun o m => Z.land o (MAX64 - m)) (fun y z => y && negb z).
Proof. split; [exact landnot_bits | apply andb_true_r]. Qed.
Lemma bitwise_lxor : bitwise Z.lxor xorb.
Proof. split; [intros; apply Z.lxor_spec | apply xorb_false_r]. Qed.

Lemma mem_setw_bit f g b i c : bitwise f g -> 0 <= i -> i / 64 < len b ->
  agree (mk (setw (data b) (i / 64) (f (word (data b) (i / 64)) (bitmask (i mod 64)))) c) (fun j => g (mem b j) (j =? i)).
Proof.
  intros [f_bits g_false] Hi Hl j Hj. destruct (pos_split i Hi) as (_ & Hq & Hm). destruct (pos_split j Hj) as (_ & _ & Hmj).
  rewrite mem_setw, (split_index i j) by lia.
  destruct (Z.eqb_spec (j / 64) (i / 64)) as [E|_]; cbn [andb]; [|symmetry; apply g_false].
  rewrite f_bits, bitmask_bits by (try apply w64_bitmask; lia). unfold mem. rewrite E. reflexivity.
Qed.

Theorem mem_set b i : 0 <= i -> agree (set b i) (fun j => (j =? i) || mem b j).
Proof.
  intros Hi j Hj. unfold set. rewrite <- (mem_ensure b (i / 64 + 1) j Hj), orb_comm. destruct (has _ _) eqn:Hb.
  - destruct (Z.eqb_spec j i) as [->|]; [rewrite orb_true_r; exact Hb | symmetry; apply orb_false_r].
  - exact (mem_setw_bit _ _ _ i _ bitwise_lor Hi (ensure_room b i) j Hj).
Qed.
Theorem mem_clear b i : 0 <= i -> agree (clear b i) (fun j => mem b j && negb (j =? i)).
Proof.
  intros Hi j Hj. unfold clear.
  assert (absent : mem b i = false -> mem b j = mem b j && negb (j =? i)).
  { intros Hb. destruct (Z.eqb_spec j i) as [->|]; [rewrite Hb; reflexivity | symmetry; apply andb_true_r]. }
  destruct (Z.ltb_spec (i / 64) (len b)) as [L|L]; [|apply absent, mem_beyond, L].
  destruct (has _ _) eqn:Hb; [|exact (absent Hb)].
  exact (mem_setw_bit _ _ b i _ bitwise_landnot Hi L j Hj).
Qed.
Theorem mem_flip b i : 0 <= i -> agree (flip b i) (fun j => xorb (mem b j) (j =? i)).
Proof.
  intros Hi j Hj. unfold flip. rewrite <- (mem_ensure b (i / 64 + 1) j Hj).
  exact (mem_setw_bit _ _ _ i _ bitwise_lxor Hi (ensure_room b i) j Hj).
Qed.

Lemma nth_firstn d : forall n i, nth i (firstn n d) 0 = if (i <? n)%nat then nth i d 0 else 0.
Proof.
  induction d as [|y d IH]; intros n i; [rewrite firstn_nil; destruct i, (_ <? _)%nat; reflexivity|].
  destruct n, i; try reflexivity. exact (IH n i).
Qed.
Lemma word_firstn d n i : word (firstn n d) i = if (Z.to_nat i <? n)%nat then word d i else 0.
Proof. apply nth_firstn. Qed.
Lemma trim_loop_words fuel d : forall i, i < Z.of_nat fuel -> (forall m, i < m -> word d m = 0) -> same_words (trim_loop fuel d i) d.
Proof.
  induction fuel as [|f IH]; intros i Hf Hz k Hk; cbn [trim_loop]; [rewrite word_nil; symmetry; apply Hz; lia|].
  destruct (Z.ltb_spec i 0); [rewrite word_nil; symmetry; apply Hz; lia|].
  destruct (Z.eqb_spec (word d i) 0) as [Ew|_]; cbn [negb].
  - apply IH; [lia | | exact Hk]. intros m Hm. destruct (Z.eq_dec m i) as [->|]; [exact Ew | apply Hz; lia].
  - rewrite word_firstn. destruct (Nat.ltb_spec (Z.to_nat k) (Z.to_nat (i + 1))); [reflexivity | symmetry; apply Hz; lia].
Qed.
Lemma trim_words b : same_words (data (trim b)) (data b).
Proof. apply trim_loop_words; unfold len; [lia|]. intros m Hm. apply word_beyond. lia. Qed.

Theorem mem_trim b : agree (trim b) (mem b).
Proof. apply same_words_agree, trim_words. Qed.
Theorem count_trim b : count (trim b) = count b. Proof. reflexivity. Qed.
Theorem mem_data b : agree (fst (get_data b)) (mem b).
Proof. apply mem_trim. Qed.
Lemma mem_load d : agree (load d) (mem (mk d 0)).
Proof. apply (same_words_agree (load d) (mk d 0)), (trim_words (mk d 0)). Qed.
Lemma mem_reload b : agree (load (snd (get_data b))) (mem b).
Proof. exact (agree_trans _ (mk (data (trim b)) 0) _ (mem_load _) (mem_trim b)). Qed.
Theorem mem_copy b i : mem (copy_of b) i = mem b i /\ count (copy_of b) = count b.
Proof. split; reflexivity. Qed.
Theorem mem_reset b i : mem (reset b) i = false.
Proof. unfold reset, mem, empty. cbn [data]. rewrite word_nil. apply Z.testbit_0_l. Qed.
Theorem mem_empty i : mem empty i = false.
Proof. apply (mem_reset empty). Qed.

Lemma trim_loop_last fuel d : forall i, i < Z.of_nat (length d) ->
  let t := trim_loop fuel d i in t = [] \/ word t (Z.of_nat (length t) - 1) <> 0.
Proof.
  induction fuel as [|f IH]; intros i Hl; cbn [trim_loop]; [left; reflexivity|].
  destruct (Z.ltb_spec i 0); [left; reflexivity|].
  destruct (Z.eqb_spec (word d i) 0) as [|Ew]; cbn [negb]; [apply IH; lia|]. right.
  rewrite firstn_length_le, word_firstn by lia.
  replace (Z.of_nat (Z.to_nat (i + 1)) - 1) with i by lia.
  rewrite (proj2 (Nat.ltb_lt _ _)) by lia. exact Ew.
Qed.
Theorem data_canonical b : let d := snd (get_data b) in d = [] \/ word d (Z.of_nat (length d) - 1) <> 0.
Proof. unfold get_data, trim. cbn [snd data]. apply trim_loop_last. unfold len. lia. Qed.
