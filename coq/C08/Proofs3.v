(* C08 — count = population of the words (kept by every operation) = number of members *)
From Coq Require Import ZArith List Bool Lia.
From Verif Require Import common.Word64 common.Word64Facts common.ListFacts C08.Model C08.Proofs C08.Proofs2.
Import ListNotations.
Open Scope Z_scope.

(* bcount p n: the number of k < n with p k. Counting from the top end, the predicate stays the same in the recursion. *)
Fixpoint bcount (p : Z -> bool) (n : nat) : Z := match n with O => 0 | S m => bcount p m + Z.b2z (p (Z.of_nat m)) end.
Lemma bcount_ext p p' n : (forall k, 0 <= k < Z.of_nat n -> p k = p' k) -> bcount p n = bcount p' n.
Proof. intros H. induction n as [|n IH]; [reflexivity|]. cbn [bcount]. rewrite IH, H by (intros; try apply H; lia). reflexivity. Qed.
Lemma bcount_zero p n : (forall k, 0 <= k < Z.of_nat n -> p k = false) -> bcount p n = 0.
Proof. intros H. induction n as [|n IH]; [reflexivity|]. cbn [bcount]. rewrite IH, H by (intros; try apply H; lia). reflexivity. Qed.
Lemma bcount_nonneg p n : 0 <= bcount p n.
Proof. induction n as [|n IH]; cbn [bcount]; [lia|]. destruct (p (Z.of_nat n)); cbn; lia. Qed.
Lemma bcount_app p n m : bcount p (n + m) = bcount p n + bcount (fun k => p (k + Z.of_nat n)) m.
Proof. induction m as [|m IH]; [rewrite Nat.add_0_r; cbn; lia|]. rewrite Nat.add_succ_r. cbn [bcount]. rewrite IH, Nat2Z.inj_add, (Z.add_comm (Z.of_nat m)). lia. Qed.
Lemma bcount_diff1 p p' j n : 0 <= j < Z.of_nat n -> (forall k, 0 <= k < Z.of_nat n -> k <> j -> p' k = p k) ->
  bcount p' n = bcount p n + Z.b2z (p' j) - Z.b2z (p j).
Proof.
  induction n as [|n IH]; intros Hj H; [lia|]. cbn [bcount]. destruct (Z.eq_dec j (Z.of_nat n)) as [->|N].
  - rewrite (bcount_ext p' p) by (intros k Hk; apply H; lia). lia.
  - rewrite IH, (H (Z.of_nat n)) by (intros; try apply H; lia). lia.
Qed.
Lemma bcount_filter p n : bcount p n = Z.of_nat (length (filter p (map Z.of_nat (seq 0 n)))).
Proof.
  induction n as [|n IH]; [reflexivity|]. rewrite seq_S, map_app, filter_app, app_length, Nat2Z.inj_add, <- IH. cbn.
  destruct (p (Z.of_nat n)); reflexivity.
Qed.

Lemma pop_aux_bits fuel : forall x, pop_aux fuel x = bcount (Z.testbit x) fuel.
Proof.
  induction fuel as [|f IH]; intros x; [reflexivity|]. change (S f) with (1 + f)%nat at 2. rewrite bcount_app. cbn [pop_aux bcount].
  rewrite IH, Z.bit0_odd. apply f_equal2; [destruct (Z.odd x); reflexivity|]. apply bcount_ext. intros k Hk. apply Z.div2_bits. lia.
Qed.
Lemma pop64_bits x : pop64 x = bcount (Z.testbit x) 64.
Proof. apply pop_aux_bits. Qed.
Lemma pop64_0 : pop64 0 = 0. Proof. reflexivity. Qed.
Lemma pop64_nonneg x : 0 <= pop64 x.
Proof. rewrite pop64_bits. apply bcount_nonneg. Qed.

Lemma word_cons_S w d k : 0 <= k -> word (w :: d) (k + 1) = word d k.
Proof. intro Hk. unfold word. replace (Z.to_nat (k + 1)) with (S (Z.to_nat k)) by lia. reflexivity. Qed.
(* the population of the words is the number of members below any bound that covers the list *)
Lemma total_bits d : forall N, (length d <= N)%nat -> total d = bcount (fun k => Z.testbit (word d (k / 64)) (k mod 64)) (64 * N).
Proof.
  induction d as [|w d IH]; intros N H.
  - symmetry. apply bcount_zero. intros k _. rewrite word_nil. apply Z.bits_0.
  - destruct N as [|N]; [cbn in H; lia|]. cbn [total fold_right]. fold (total d). rewrite (IH N) by (cbn in H; lia).
    rewrite Nat.mul_succ_r, Nat.add_comm, bcount_app, pop64_bits. change (Z.of_nat 64) with 64. apply f_equal2; apply bcount_ext; intros k Hk.
    + rewrite Z.div_small, Z.mod_small by lia. reflexivity.
    + replace (k + 64) with (k + 1 * 64) by lia. rewrite Z.div_add, Z.mod_add, word_cons_S by (try apply Z.div_pos; lia). reflexivity.
Qed.
(* so the population depends on the members only *)
Lemma total_agree a b : agree a (mem b) -> total (data a) = total (data b).
Proof.
  intros H. rewrite (total_bits (data a) (Nat.max (length (data a)) (length (data b)))), (total_bits (data b) (Nat.max (length (data a)) (length (data b)))) by lia.
  apply bcount_ext. intros k Hk. apply H. lia.
Qed.
Lemma total_same_words d d' : same_words d d' -> total d = total d'.
Proof. intros H. apply (total_agree (mk d 0) (mk d' 0)), same_words_agree, H. Qed.

Definition wfd (d : list Z) : Prop := forall i, 0 <= i -> w64 (word d i).
Definition Inv (b : bs) : Prop := wfd (data b) /\ cnt b = total (data b).

Lemma w64_lor a b : w64 a -> w64 b -> w64 (Z.lor a b).
Proof. apply (w64_op Z.lor orb); [intros; apply Z.lor_spec|intros; apply Z.lor_nonneg; lia|reflexivity]. Qed.
Lemma w64_lxor a b : w64 a -> w64 b -> w64 (Z.lxor a b).
Proof. apply (w64_op Z.lxor xorb); [intros; apply Z.lxor_spec|intros; apply Z.lxor_nonneg; lia|reflexivity]. Qed.
Lemma w64_landnot a b : w64 a -> w64 b -> w64 (Z.land a (MAX64 - b)).
Proof.
  intros Ha Hb. apply (w64_op Z.land andb); [intros; apply Z.land_spec|intros; apply Z.land_nonneg; lia|reflexivity|exact Ha|apply not64_range, Hb].
Qed.
Lemma wfd_high d i k : wfd d -> 0 <= i -> 64 <= k -> Z.testbit (word d i) k = false.
Proof. intros H Hi. apply w64_bits, H, Hi. Qed.

Lemma wfd_same_words d d' : same_words d' d -> wfd d -> wfd d'.
Proof. intros H Hd i Hi. rewrite H by exact Hi. apply Hd, Hi. Qed.
Lemma inv_same_words b b' : same_words (data b') (data b) -> cnt b' = cnt b -> Inv b -> Inv b'.
Proof. intros H Hc [W1 C1]. split; [exact (wfd_same_words _ _ H W1) | rewrite Hc, C1; symmetry; apply total_same_words, H]. Qed.
Lemma inv_ensure b w : Inv b -> Inv (ensure b w).
Proof. apply inv_same_words; [apply ensure_words | apply count_ensure]. Qed.
Lemma inv_trim b : Inv b -> Inv (trim b).
Proof. apply inv_same_words; [apply trim_words | reflexivity]. Qed.
Lemma inv_empty : Inv empty.
Proof. split; [intros i Hi; unfold empty; cbn [data]; rewrite word_nil; unfold w64; lia|reflexivity]. Qed.
Lemma fold_total d : forall a, fold_left (fun a w => a + pop64 w) d a = a + total d.
Proof. induction d as [|w d IH]; intros a; cbn [fold_left total fold_right]; [lia|]. fold (total d). rewrite IH. lia. Qed.
Lemma inv_load d : wfd d -> Inv (load d).
Proof. intros H. split; [exact (wfd_same_words _ _ (trim_words (mk d 0)) H) | apply fold_total]. Qed.

Lemma pop64_change x y j : 0 <= j < 64 -> (forall k, 0 <= k < 64 -> k <> j -> Z.testbit y k = Z.testbit x k) ->
  pop64 y = pop64 x + Z.b2z (Z.testbit y j) - Z.b2z (Z.testbit x j).
Proof.
  intros Hj H. rewrite !pop64_bits. apply bcount_diff1; [lia|]. intros k Hk. apply H. lia.
Qed.
(* the invariant's counterpart of mem_setw_bit *)
Lemma inv_setw_bit f g b i : bitwise f g -> (forall o m, w64 o -> w64 m -> w64 (f o m)) -> 0 <= i -> i / 64 < len b -> Inv b ->
  Inv (mk (setw (data b) (i / 64) (f (word (data b) (i / 64)) (bitmask (i mod 64)))) (cnt b + Z.b2z (g (mem b i) true) - Z.b2z (mem b i))).
Proof.
  intros [f_bits g_false] Hf Hi Hl [W1 C1]. unfold len in Hl. destruct (pos_split i Hi) as (_ & Hq & Hm).
  assert (Hw : 0 <= i / 64 < Z.of_nat (length (data b))) by lia. pose proof (w64_bitmask _ Hm) as Hb. split; cbn [data cnt].
  - intros k Hk. rewrite word_setw by assumption. destruct (k =? i / 64); [apply Hf; [apply W1; lia | exact Hb] | apply W1, Hk].
  - set (x := f _ _). assert (D : forall k, 0 <= k < 64 -> k <> i mod 64 -> Z.testbit x k = Z.testbit (word (data b) (i / 64)) k).
    { intros k Hk Hn. unfold x. rewrite f_bits, bitmask_bits, (proj2 (Z.eqb_neq k _) Hn) by (assumption || lia). apply g_false. }
    rewrite total_setw by exact Hw. rewrite (pop64_change _ x (i mod 64) Hm D). unfold x.
    rewrite f_bits, bitmask_bits, Z.eqb_refl by (assumption || lia). unfold mem. lia.
Qed.

Lemma inv_set b i : 0 <= i -> Inv b -> Inv (set b i).
Proof.
  intros Hi HI. unfold set. pose proof (ensure_room b i) as L. apply (inv_ensure b (i / 64 + 1)) in HI.
  set (b1 := ensure b (i / 64 + 1)) in *.
  destruct (has _ _) eqn:Hb; [exact HI|]. change (mem b1 i = false) in Hb.
  replace (cnt b1 + 1) with (cnt b1 + Z.b2z (mem b1 i || true) - Z.b2z (mem b1 i)) by (rewrite Hb; cbn; lia).
  exact (inv_setw_bit _ _ b1 i bitwise_lor w64_lor Hi L HI).
Qed.
Lemma inv_clear b i : 0 <= i -> Inv b -> Inv (clear b i).
Proof.
  intros Hi HI. unfold clear.
  destruct (Z.ltb_spec (i / 64) (len b)) as [L|L]; [|exact HI]. destruct (has _ _) eqn:Hb; [|exact HI]. change (mem b i = true) in Hb.
  replace (cnt b - 1) with (cnt b + Z.b2z (mem b i && negb true) - Z.b2z (mem b i)) by (rewrite Hb; cbn; lia).
  exact (inv_setw_bit _ _ b i bitwise_landnot w64_landnot Hi L HI).
Qed.
Lemma inv_flip b i : 0 <= i -> Inv b -> Inv (flip b i).
Proof.
  intros Hi HI. unfold flip. pose proof (ensure_room b i) as L. apply (inv_ensure b (i / 64 + 1)) in HI.
  set (b1 := ensure b (i / 64 + 1)) in *.
  replace (if has _ _ then _ else _) with (cnt b1 + Z.b2z (xorb (mem b1 i) true) - Z.b2z (mem b1 i)) by (unfold has, mem; destruct (Z.testbit _ _); cbn; lia).
  exact (inv_setw_bit _ _ b1 i bitwise_lxor w64_lxor Hi L HI).
Qed.

Lemma inv_apply_range f b lo hi : (forall o m, w64 o -> w64 m -> w64 (f o m)) ->
  0 <= lo -> lo <= hi -> hi / 64 < len b -> Inv b -> Inv (apply_range f b lo hi).
Proof.
  intros Hf H0 H1 Hl [W1 C1]. destruct (apply_range_words f b lo hi H0 H1 Hl) as [B C]. split.
  - intros i Hi. rewrite B by exact Hi. destruct (_ && _); [|apply W1, Hi]. apply Hf; [apply W1, Hi | apply w64_mask_at, Z.mod_pos_bound; lia].
  - rewrite C. lia.
Qed.
Lemma inv_ensure_apply f b s e : (forall o m, w64 o -> w64 m -> w64 (f o m)) -> 0 <= s -> 0 <= e -> Inv b ->
  Inv (apply_range f (ensure b (Z.max s e / 64 + 1)) (Z.min s e) (Z.max s e)).
Proof. intros Hf Hs He HI. pose proof (len_ensure b (Z.max s e / 64 + 1)). apply inv_apply_range; [exact Hf | lia | lia | lia | apply inv_ensure, HI]. Qed.
Lemma inv_set_range b s e : 0 <= s -> 0 <= e -> Inv b -> Inv (set_range b s e).
Proof. rewrite set_range_eq. apply inv_ensure_apply. exact w64_lor. Qed.
Lemma inv_flip_range b s e : 0 <= s -> 0 <= e -> Inv b -> Inv (flip_range b s e).
Proof. rewrite flip_range_eq. apply inv_ensure_apply. exact w64_lxor. Qed.
Lemma inv_clear_range b s e : 0 <= s -> 0 <= e -> Inv b -> Inv (clear_range b s e).
Proof.
  intros Hs He HI. rewrite clear_range_eq. destruct (Z.ltb_spec (len b - 1) (Z.min s e / 64)) as [|Hm]; [exact HI|].
  destruct (clamp_fits (len b) (Z.min s e) (Z.max s e) ltac:(lia) Hm). apply inv_apply_range; [exact w64_landnot | lia | | | ]; assumption.
Qed.

(* operations with valid arguments: indexes are non-negative (the library exits otherwise), loaded words are 64-bit *)
Definition op_ok (o : op) : Prop :=
  match o with
  | OSet i | OClear i | OFlip i => 0 <= i
  | OSetRange s e | OClearRange s e | OFlipRange s e => 0 <= s /\ 0 <= e
  | OLoad d => wfd d
  | _ => True
  end.
Lemma inv_step b o : op_ok o -> Inv b -> Inv (step b o).
Proof.
  intros Ho HI. destruct o; cbn [step op_ok] in *.
  1-3: auto using inv_set, inv_clear, inv_flip.
  1-3: destruct Ho; auto using inv_set_range, inv_clear_range, inv_flip_range.
  - (* Trim *) apply inv_trim, HI.
  - (* EnsureCapacity *) apply inv_ensure, HI.
  - (* Data *) apply inv_trim, HI.
  - (* Reset *) apply inv_empty.
  - (* Load *) apply inv_load, Ho.
  - (* Load(Data()) *) apply inv_load, (inv_trim b HI).
  - (* Copy *) exact HI.
  - (* Clone *) exact HI.
Qed.
Theorem inv_run ops : Forall op_ok ops -> Inv (run ops).
Proof. intros HF. apply (fold_left_inv_Forall Inv op_ok step); [intros b o HI Ho; exact (inv_step b o Ho HI) | apply inv_empty | exact HF]. Qed.

Theorem count_members b N : Inv b -> (length (data b) <= N)%nat ->
  count b = Z.of_nat (length (filter (mem b) (map Z.of_nat (seq 0 (64 * N))))) /\ (forall i, 64 * Z.of_nat N <= i -> mem b i = false).
Proof.
  intros [W1 C1] HN. split.
  - unfold count. rewrite C1, (total_bits _ N HN). apply bcount_filter.
  - intros i Hi. apply mem_above. unfold len. lia.
Qed.
Lemma same_count a b : Inv a -> Inv b -> agree a (mem b) -> count a = count b.
Proof. intros [_ Ca] [_ Cb] H. unfold count. rewrite Ca, Cb. apply total_agree, H. Qed.
