(* C14 — WriteFile's call list has one shape (write_file_shape): the open, writes that add up to what the writer produced, and an
   ending; only a successful rename changes the destination. The theorems are read off that. *)
From Coq Require Import ZArith List Bool Arith Lia.
From Verif Require Import common.ListFacts C14.Model.
Import ListNotations.
Open Scope Z_scope.

Definition wsize (s : sys) : Z := match s with SWrite n => n | _ => 0 end.
Definition wsum (l : list sys) : Z := fold_right (fun s a => wsize s + a) 0 l.
Definition zsum (l : list Z) : Z := fold_right Z.add 0 l.
Definition only_writes (l : list sys) : Prop := Forall (fun s => exists n, s = SWrite n) l.
Definition no_rename (s : sys) : Prop := s <> SRename true.

Lemma wsum_cons s l : wsum (s :: l) = wsize s + wsum l.
Proof. reflexivity. Qed.
Lemma zsum_cons m l : zsum (m :: l) = m + zsum l.
Proof. reflexivity. Qed.
Lemma wsum_app a b : wsum (a ++ b) = wsum a + wsum b.
Proof. induction a as [|x a IH]; [reflexivity|]. cbn [app]. rewrite !wsum_cons, IH. lia. Qed.
Lemma wsum_writes ws : wsum (map SWrite ws) = zsum ws.
Proof. induction ws as [|w ws IH]; [reflexivity|]. cbn [map]. rewrite wsum_cons, zsum_cons, IH. reflexivity. Qed.
Lemma only_writes_app a b : only_writes a -> only_writes b -> only_writes (a ++ b).
Proof. intros. apply Forall_app. split; assumption. Qed.
Lemma only_writes_map ws : only_writes (map SWrite ws).
Proof. apply Forall_map, Forall_forall. eauto. Qed.
Lemma writes_no_rename l : only_writes l -> Forall no_rename l.
Proof. apply Forall_impl. intros s [n ->]. discriminate. Qed.

Lemma bufio_write_spec : forall fuel b m l b', bufio_write fuel b m = (l, b') -> wsum l + b' = b + m /\ only_writes l.
Proof.
  induction fuel as [|f IH]; intros b m l b' H; cbn [bufio_write] in H.
  - injection H as <- <-. split; [reflexivity|constructor].
  - destruct (BUF - b <? m).
    + destruct (b =? 0) eqn:B.
      * injection H as <- <-. apply Z.eqb_eq in B. subst. split; [cbn; lia|repeat constructor; eauto].
      * destruct (bufio_write f 0 (m - (BUF - b))) as [l0 b0] eqn:E. injection H as <- <-. destruct (IH _ _ _ _ E) as [S W].
        split; [rewrite wsum_cons; cbn [wsize]; lia|constructor; [eauto|exact W]].
    + injection H as <- <-. split; [reflexivity|constructor].
Qed.
Lemma bufio_writes_spec : forall ws b l b', bufio_writes b ws = (l, b') -> wsum l + b' = b + zsum ws /\ only_writes l.
Proof.
  induction ws as [|m ws IH]; intros b l b' H; cbn [bufio_writes] in H.
  - injection H as <- <-. split; [cbn; lia|constructor].
  - destruct (bufio_write 3 b m) as [l1 b1] eqn:E1. destruct (bufio_writes b1 ws) as [l2 b2] eqn:E2. injection H as <- <-.
    destruct (bufio_write_spec _ _ _ _ _ E1) as [S1 W1]. destruct (IH _ _ _ E2) as [S2 W2].
    split; [rewrite wsum_app, zsum_cons; lia|apply only_writes_app; assumption].
Qed.
Lemma flush_spec b : wsum (flush b) = b /\ only_writes (flush b).
Proof. unfold flush. destruct (Z.eqb_spec b 0) as [->|_]; [split; [reflexivity|constructor]|split; [cbn; lia|repeat constructor; eauto]]. Qed.

Lemma snoc_split {A} (l : list A) x p q : l ++ [x] = p ++ q -> q = [] \/ exists r, l = p ++ r.
Proof.
  destruct q as [|y q _] using rev_ind; intro E; [left; reflexivity|right]. rewrite app_assoc in E. apply app_inj_tail in E. exists q. apply E.
Qed.

Definition ending (fail_after : option nat) (rename_ok : bool) : list sys :=
  match fail_after with
  | Some _ => [SClose; SUnlink]
  | None => if rename_ok then [SClose; SRename true] else [SClose; SRename false; SUnlink]
  end.
Lemma write_file_shape ws fail_after rename_ok : exists l, only_writes l /\ (fail_after = None -> wsum l = zsum ws) /\
  write_file ws fail_after rename_ok =
  (SOpenTemp :: l ++ ending fail_after rename_ok, match fail_after with Some _ => true | None => negb rename_ok end).
Proof.
  unfold write_file, ending. destruct fail_after as [k|].
  - destruct (bufio_writes 0 (firstn k ws)) as [l b] eqn:E. destruct (bufio_writes_spec _ _ _ _ E) as [_ W].
    exists l. split; [exact W|]. split; [discriminate|reflexivity].
  - destruct (bufio_writes 0 ws) as [l b] eqn:E. destruct (bufio_writes_spec _ _ _ _ E) as [S W]. destruct (flush_spec b) as [Sf Wf].
    exists (l ++ flush b). split; [apply only_writes_app; assumption|]. split; [intros _; rewrite wsum_app; lia|].
    rewrite <- !app_assoc. destruct rename_ok; reflexivity.
Qed.

Section A.
Variables (mode umask : Z) (mask : Z -> Z -> Z).
Notation apply := (apply mode umask mask).
Notation run := (run mode umask mask).

Lemma run_app f a b : run f (a ++ b) = run (run f a) b.
Proof. unfold Model.run. apply fold_left_app. Qed.
Lemma run_writes : forall l d k, only_writes l -> run {| dest := d; temp := Some k |} l = {| dest := d; temp := Some (k + wsum l) |}.
Proof.
  induction l as [|s l IH]; intros d k W.
  - cbn. rewrite Z.add_0_r. reflexivity.
  - inversion W as [|? ? [n ->] W']; subst. unfold Model.run in *. cbn [fold_left Model.apply dest temp]. rewrite IH by exact W'.
    rewrite wsum_cons, Z.add_assoc. reflexivity.
Qed.
Lemma dest_kept : forall l f, Forall no_rename l -> dest (run f l) = dest f.
Proof.
  induction l as [|s l IH]; intros f H; [reflexivity|]. inversion H as [|? ? Hs Hl]; subst. unfold Model.run in *. cbn [fold_left].
  rewrite IH by exact Hl. destruct s as [|n| |[|]|]; cbn [Model.apply dest]; try reflexivity. destruct Hs. reflexivity.
Qed.
Lemma dest_kept_prefix f calls p q : Forall no_rename calls -> calls = p ++ q -> dest (run f p) = dest f.
Proof. intros H ->. apply dest_kept. apply Forall_app in H. apply H. Qed.

Definition old_fs (d : option (content * Z)) : fs := {| dest := d; temp := None |}.

Lemma run_session d l tail : only_writes l ->
  run (old_fs d) (SOpenTemp :: l ++ tail) = run {| dest := d; temp := Some (wsum l) |} tail.
Proof. intro W. change (SOpenTemp :: l ++ tail) with ([SOpenTemp] ++ l ++ tail). rewrite !run_app. cbn [Model.run fold_left Model.apply old_fs dest]. apply f_equal2; [|reflexivity]. apply (run_writes l d 0 W). Qed.
Lemma session_no_rename l tail : only_writes l -> Forall no_rename tail -> Forall no_rename (SOpenTemp :: l ++ tail).
Proof. intros W T. constructor; [discriminate|]. apply Forall_app. split; [apply writes_no_rename, W|exact T]. Qed.

Theorem write_file_success ws d : let '(calls, err) := write_file ws None true in
  err = false /\ run (old_fs d) calls = {| dest := Some (New (zsum ws), mask mode umask); temp := None |}.
Proof.
  destruct (write_file_shape ws None true) as (l & W & S & ->). split; [reflexivity|].
  rewrite run_session by exact W. cbn. rewrite (S eq_refl). reflexivity.
Qed.

Theorem write_file_failure ws d fail_after rename_ok : (fail_after <> None \/ rename_ok = false) ->
  let '(calls, err) := write_file ws fail_after rename_ok in err = true /\ run (old_fs d) calls = old_fs d.
Proof.
  intro H. destruct (write_file_shape ws fail_after rename_ok) as (l & W & _ & ->). rewrite run_session by exact W.
  destruct fail_after; [split; reflexivity|]. destruct H as [H| ->]; [congruence|]. split; reflexivity.
Qed.

Theorem write_file_atomic ws d fail_after rename_ok p q : fst (write_file ws fail_after rename_ok) = p ++ q ->
  dest (run (old_fs d) p) = d \/ dest (run (old_fs d) p) = Some (New (zsum ws), mask mode umask).
Proof.
  destruct (write_file_shape ws fail_after rename_ok) as (l & W & S & ->). cbn [fst]. intro E.
  assert (K : forall tail r, SOpenTemp :: l ++ tail = p ++ r -> Forall no_rename tail -> dest (run (old_fs d) p) = d).
  { intros tail r Er T. exact (dest_kept_prefix _ _ _ _ (session_no_rename l tail W T) Er). }
  destruct fail_after as [k|]; [|destruct rename_ok]; cbn [ending] in E; try (left; apply (K _ _ E); repeat constructor; discriminate).
  (* success: the prefix is the whole list or stops before the rename *)
  destruct (snoc_split (SOpenTemp :: l ++ [SClose]) (SRename true) p q) as [->|[r Hr]].
  - rewrite <- E. cbn [app]. rewrite <- app_assoc. reflexivity.
  - right. rewrite app_nil_r in E. subst p. rewrite run_session by exact W. cbn. rewrite (S eq_refl). reflexivity.
  - left. apply (K _ _ Hr). repeat constructor. discriminate.
Qed.

Theorem any_calls_atomic : forall l f, dest (run f l) = dest f \/ exists k, dest (run f l) = Some (New k, mask mode umask).
Proof.
  intros l f. apply (fold_left_inv (fun g => dest g = dest f \/ exists k, dest g = Some (New k, mask mode umask))); [|left; reflexivity].
  intros g s IH. destruct s as [|n| |[|]|]; cbn [Model.apply dest]; try exact IH. destruct (temp g) as [k|]; [right; exists k; reflexivity|exact IH].
Qed.

Theorem file_after_commit_is_inert rename_ok o st : committed st = true ->
  file_step rename_ok st o = (st, match o with FWrite n => if closed st then [] else [SWrite n] | _ => [] end,
                              match o with FWrite _ => if closed st then RFailed else ROk | _ => ROk end).
Proof. intro H. destruct o; cbn [file_step]; rewrite ?H; try reflexivity. destruct (closed st); reflexivity. Qed.

Lemma file_session_writes ok ws rest : file_session ok (map FWrite ws ++ rest) =
  let '(l, rs) := file_run ok {| committed := false; closed := false |} rest in
  (SOpenTemp :: map SWrite ws ++ l, map (fun _ => ROk) ws ++ rs).
Proof.
  unfold file_session. induction ws as [|w ws IH]; cbn [map app file_run file_step closed].
  - destruct (file_run ok _ rest). reflexivity.
  - destruct (file_run ok _ (map FWrite ws ++ rest)) as [l rs]. destruct (file_run ok _ rest). injection IH as -> ->. reflexivity.
Qed.
Lemma all_ok ws (tail : list fres) : Forall (fun r => r = ROk) tail -> Forall (fun r => r = ROk) (map (fun _ : Z => ROk) ws ++ tail).
Proof. intro T. apply Forall_app. split; [|exact T]. apply Forall_map, Forall_forall. reflexivity. Qed.

Theorem file_close_without_commit d (ws : list Z) :
  let '(calls, res) := file_session true (map FWrite ws ++ [FClose]) in
  run (old_fs d) calls = old_fs d /\ Forall (fun r => r = ROk) res.
Proof.
  rewrite file_session_writes. cbn [file_run file_step committed closed app]. split; [|apply all_ok; repeat constructor].
  rewrite run_session by apply only_writes_map. reflexivity.
Qed.

Theorem file_commit_publishes_everything_written d (ws : list Z) :
  let '(calls, res) := file_session true (map FWrite ws ++ [FCommit; FClose; FCommit]) in
  run (old_fs d) calls = {| dest := Some (New (zsum ws), mask mode umask); temp := None |} /\ Forall (fun r => r = ROk) res.
Proof.
  rewrite file_session_writes. cbn [file_run file_step committed closed app]. split; [|apply all_ok; repeat constructor].
  rewrite run_session by apply only_writes_map. rewrite wsum_writes. reflexivity.
Qed.
End A.
