(* C14 — write faults: the temporary file may not grow beyond a limit and the writer callback ignores the errors of its Write calls.
   The invariant (bstate) follows the bytes handed to the bufio.Writer. *)
From Coq Require Import ZArith List Bool Arith Lia.
From Verif Require Import C14.Model C14.Proofs.
Import ListNotations.
Open Scope Z_scope.

(* T = the bytes handed to the bufio.Writer so far. Without an error: everything is in the file or in the buffer; with an error:
   more was handed over than the file may hold *)
Definition bstate (limit T k b : Z) (e : bool) : Prop :=
  0 <= k <= limit /\ 0 <= b /\ (e = false -> k + b = T) /\ (e = true -> limit < T).

Lemma bstate_ok limit k b : 0 <= k <= limit -> 0 <= b -> bstate limit (k + b) k b false.
Proof. intros. unfold bstate. repeat split; try lia; discriminate. Qed.
Lemma bstate_err limit T k b : 0 <= k <= limit -> 0 <= b -> limit < T -> bstate limit T k b true.
Proof. intros. unfold bstate. repeat split; try lia; intro; try discriminate; lia. Qed.
(* m more bytes that stay in the buffer *)
Lemma bstate_buffer limit T k b e m : 0 <= m -> bstate limit T k b e -> bstate limit (T + m) k (b + m) e.
Proof. intros Hm (Hk & Hb & He0 & He1). repeat split; try lia; intro X; [specialize (He0 X)|specialize (He1 X)]; lia. Qed.
(* the error stays whatever else is handed over, and the buffer no longer counts *)
Lemma bstate_stuck limit T T' k b b' : bstate limit T k b true -> T <= T' -> 0 <= b' -> bstate limit T' k b' true.
Proof. intros (Hk & _ & _ & He) HT Hb. specialize (He eq_refl). apply bstate_err; lia. Qed.

(* os.File.Write of a buffer of n bytes empties it or sets the error *)
Lemma file_write_spec limit T k n l k' e : bstate limit T k n false -> file_write limit k n = (l, k', e) ->
  only_writes l /\ k' = k + wsum l /\ bstate limit T k' 0 e.
Proof.
  intros (Hk & Hn & He & _) H. destruct (He eq_refl). unfold file_write in H. destruct (Z.leb_spec (k + n) limit) as [E|E].
  - injection H as <- <- <-. split; [repeat constructor; eauto|]. split; [cbn; lia|]. rewrite <- (Z.add_0_r (k + n)) at 1. apply bstate_ok; lia.
  - destruct (Z.ltb_spec k limit) as [E2|E2]; injection H as <- <- <-.
    + split; [repeat constructor; eauto|]. split; [cbn; lia|]. apply bstate_err; lia.
    + split; [constructor|]. split; [cbn; lia|]. apply bstate_err; lia.
Qed.

(* whatever the fuel: when it runs out the bytes are just buffered, which keeps bstate. (The model gives 3; the function calls
   itself at one place only, after it has written out a full buffer, and then with b = 0, where it returns without a further call.) *)
Lemma bufio_write_lim_spec limit : forall fuel T k b e m l k' b' e', 0 <= m -> bstate limit T k b e ->
  bufio_write_lim fuel limit k b e m = (l, k', b', e') ->
  only_writes l /\ k' = k + wsum l /\ bstate limit (T + m) k' b' e'.
Proof.
  induction fuel as [|f IH]; intros T k b e m l k' b' e' Hm ST H; cbn [bufio_write_lim] in H.
  { injection H as <- <- <- <-. split; [constructor|]. split; [cbn; lia|]. apply bstate_buffer; assumption. }
  destruct e.
  { injection H as <- <- <- <-. split; [constructor|]. split; [cbn; lia|]. apply (bstate_stuck limit T _ k b); [exact ST|lia|apply ST]. }
  destruct (Z.ltb_spec (BUF - b) m) as [E|E].
  2:{ injection H as <- <- <- <-. split; [constructor|]. split; [cbn; lia|]. apply bstate_buffer; assumption. }
  pose proof ST as (Hk & Hb & He0 & _). destruct (He0 eq_refl). destruct (Z.eqb_spec b 0) as [->|NZ].
  - destruct (file_write limit k m) as [[l0 k0] e0] eqn:F. injection H as <- <- <- <-.
    exact (file_write_spec limit _ k m l0 k0 e0 (bstate_buffer limit _ k 0 false m Hm ST) F).
  - (* the buffer is filled up from the m bytes and written out; the rest of them meets an empty buffer *)
    destruct (file_write limit k BUF) as [[l0 k0] e0] eqn:F.
    destruct (file_write_spec limit _ k BUF l0 k0 e0 (bstate_ok limit k BUF Hk ltac:(unfold BUF; lia)) F) as (W & K & S0). destruct e0.
    + injection H as <- <- <- <-. split; [exact W|]. split; [exact K|]. apply (bstate_stuck limit (k + BUF) _ k0 0); [exact S0|lia|exact Hb].
    + destruct (bufio_write_lim f limit k0 0 false (m - (BUF - b))) as [[[l2 k2] b2] e2] eqn:G. injection H as <- <- <- <-.
      destruct (IH (k + BUF) k0 0 false (m - (BUF - b)) l2 k2 b2 e2 ltac:(lia) S0 G) as (W2 & K2 & S2).
      split; [apply only_writes_app; assumption|]. split; [rewrite wsum_app; lia|].
      replace (k + b + m) with (k + BUF + (m - (BUF - b))) by lia. exact S2.
Qed.
Lemma bufio_writes_lim_spec limit : forall ws T k b e l k' b' e', Forall (fun m => 0 <= m) ws -> bstate limit T k b e ->
  bufio_writes_lim limit k b e ws = (l, k', b', e') ->
  only_writes l /\ k' = k + wsum l /\ bstate limit (T + zsum ws) k' b' e'.
Proof.
  induction ws as [|m ws IH]; intros T k b e l k' b' e' HF ST H; cbn [bufio_writes_lim] in H.
  - injection H as <- <- <- <-. split; [constructor|]. split; [cbn; lia|]. cbn [zsum fold_right]. rewrite Z.add_0_r. exact ST.
  - inversion HF as [|? ? Hm HF']; subst.
    destruct (bufio_write_lim 3 limit k b e m) as [[[l1 k1] b1] e1] eqn:E1.
    destruct (bufio_writes_lim limit k1 b1 e1 ws) as [[[l2 k2] b2] e2] eqn:E2. injection H as <- <- <- <-.
    destruct (bufio_write_lim_spec limit 3 T k b e m l1 k1 b1 e1 Hm ST E1) as (W1 & K1 & S1).
    destruct (IH _ _ _ _ _ _ _ _ HF' S1 E2) as (W2 & K2 & S2).
    split; [apply only_writes_app; assumption|]. split; [rewrite wsum_app; lia|]. rewrite zsum_cons, Z.add_assoc. exact S2.
Qed.

Lemma final_flush_spec limit T k b e l k' e' : bstate limit T k b e ->
  (if e then ([], k, true) else if b =? 0 then ([], k, false) else file_write limit k b) = (l, k', e') ->
  only_writes l /\ k' = k + wsum l /\ bstate limit T k' 0 e'.
Proof.
  intros ST H. destruct e.
  - injection H as <- <- <-. split; [constructor|]. split; [cbn; lia|]. apply (bstate_stuck limit T T k b); [exact ST|lia|lia].
  - destruct (Z.eqb_spec b 0) as [->|NZ]; [|exact (file_write_spec limit T k b l k' e' ST H)].
    injection H as <- <- <-. split; [constructor|]. split; [cbn; lia|exact ST].
Qed.

Section A.
Variables (mode umask : Z) (mask : Z -> Z -> Z).
Notation run := (run mode umask mask).

Theorem write_file_limited_spec ws limit d : Forall (fun m => 0 <= m) ws -> 0 <= limit ->
  let '(calls, err) := write_file_limited ws limit in
  (err = true <-> limit < zsum ws) /\
  (err = true -> run (old_fs d) calls = old_fs d /\ forall p q, calls = p ++ q -> dest (run (old_fs d) p) = d) /\
  (err = false -> run (old_fs d) calls = {| dest := Some (New (zsum ws), mask mode umask); temp := None |}).
Proof.
  intros HF HL. unfold write_file_limited.
  destruct (bufio_writes_lim limit 0 0 false ws) as [[[l k] b] e] eqn:E.
  destruct (bufio_writes_lim_spec limit ws (0 + 0) 0 0 false l k b e HF (bstate_ok limit 0 0 ltac:(lia) ltac:(lia)) E) as (W & K & ST).
  destruct (if e then _ else _) as [[l2 k2] e2] eqn:F. destruct (final_flush_spec limit _ k b e l2 k2 e2 ST F) as (W2 & K2 & Hk2 & _ & A & B).
  rewrite !app_assoc. pose proof (only_writes_app l l2 W W2) as W12. destruct e2.
  - split; [split; intro; [apply B|]; reflexivity|]. split; [|discriminate]. intros _. split.
    + rewrite (run_session mode umask mask) by exact W12. reflexivity.
    + intros p q. apply (dest_kept_prefix mode umask mask), session_no_rename; [exact W12|]. repeat constructor; discriminate.
  - specialize (A eq_refl). split; [split; intro; [discriminate|lia]|]. split; [discriminate|]. intros _.
    rewrite (run_session mode umask mask) by exact W12. cbn. rewrite wsum_app. replace (wsum l + wsum l2) with (zsum ws) by lia. reflexivity.
Qed.
End A.
