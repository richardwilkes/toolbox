(* C14 — property theorems only. Each is closed by [exact] of a lemma from Proofs.v or Proofs2.v and followed by Print Assumptions.
   A run is the list of system calls touching the destination's directory; a crash at any instant leaves the effect of a prefix
   of that list (rename is atomic and a killed process loses no completed call: assumptions about the OS). [d] is the destination
   before the run (None = absent). *)
From Coq Require Import ZArith List Bool.
From Verif Require Import C14.Model C14.Proofs C14.Proofs2.
Import ListNotations.
Open Scope Z_scope.

(* At every crash point of WriteFile - whatever the writes, wherever the writer fails, whether or not the rename can succeed -
   the destination is its complete previous state or the complete new content with the requested mode *)
Theorem C14_writefile_all_or_nothing_at_every_crash_point : forall mode umask mask ws d fail_after rename_ok p q,
  fst (write_file ws fail_after rename_ok) = p ++ q ->
  dest (run mode umask mask (old_fs d) p) = d \/ dest (run mode umask mask (old_fs d) p) = Some (New (zsum ws), mask mode umask).
Proof. exact write_file_atomic. Qed.
Print Assumptions C14_writefile_all_or_nothing_at_every_crash_point.

(* Success: exactly the bytes written, requested mode, no temporary file, no error *)
Theorem C14_writefile_success : forall mode umask mask ws d, let '(calls, err) := write_file ws None true in
  err = false /\ run mode umask mask (old_fs d) calls = {| dest := Some (New (zsum ws), mask mode umask); temp := None |}.
Proof. exact write_file_success. Qed.
Print Assumptions C14_writefile_success.

(* Failure of the writer (after any number of writes) or of the commit: error returned, destination untouched, no temporary file *)
Theorem C14_writefile_failure_leaves_everything_untouched : forall mode umask mask ws d fail_after rename_ok, (fail_after <> None \/ rename_ok = false) ->
  let '(calls, err) := write_file ws fail_after rename_ok in err = true /\ run mode umask mask (old_fs d) calls = old_fs d.
Proof. exact write_file_failure. Qed.
Print Assumptions C14_writefile_failure_leaves_everything_untouched.

(* Write faults (Proofs2.v): the temporary file may not grow beyond [limit] bytes (file-size limit, full disk) and the writer callback
   IGNORES the errors of its own Write calls, so only WriteFile's final Flush can notice. WriteFile returns an error exactly when
   the data does not fit; then nothing is ever published - at every crash point the destination is its previous state - and no
   temporary file remains; when the data fits the destination is exactly the bytes written *)
Theorem C14_write_fault_is_reported_and_nothing_is_published : forall mode umask mask ws limit d, Forall (fun m => 0 <= m) ws -> 0 <= limit ->
  let '(calls, err) := write_file_limited ws limit in
  (err = true <-> limit < zsum ws) /\
  (err = true -> run mode umask mask (old_fs d) calls = old_fs d /\ forall p q, calls = p ++ q -> dest (run mode umask mask (old_fs d) p) = d) /\
  (err = false -> run mode umask mask (old_fs d) calls = {| dest := Some (New (zsum ws), mask mode umask); temp := None |}).
Proof. exact write_file_limited_spec. Qed.
Print Assumptions C14_write_fault_is_reported_and_nothing_is_published.

(* The File API in any order of Write, Commit and Close, at any crash point: the destination is the old file or a file published by a rename *)
Theorem C14_any_call_sequence_is_atomic : forall mode umask mask l f,
  dest (run mode umask mask f l) = dest f \/ exists k, dest (run mode umask mask f l) = Some (New k, mask mode umask).
Proof. exact any_calls_atomic. Qed.
Print Assumptions C14_any_call_sequence_is_atomic.
Theorem C14_close_without_commit_discards : forall mode umask mask d ws,
  let '(calls, res) := file_session true (map FWrite ws ++ [FClose]) in
  run mode umask mask (old_fs d) calls = old_fs d /\ Forall (fun r => r = ROk) res.
Proof. exact file_close_without_commit. Qed.
Print Assumptions C14_close_without_commit_discards.
Theorem C14_commit_publishes_and_further_calls_are_harmless : forall mode umask mask d ws,
  let '(calls, res) := file_session true (map FWrite ws ++ [FCommit; FClose; FCommit]) in
  run mode umask mask (old_fs d) calls = {| dest := Some (New (zsum ws), mask mode umask); temp := None |} /\ Forall (fun r => r = ROk) res.
Proof. exact file_commit_publishes_everything_written. Qed.
Print Assumptions C14_commit_publishes_and_further_calls_are_harmless.
Theorem C14_after_commit_nothing_touches_the_files : forall rename_ok o st, committed st = true ->
  file_step rename_ok st o = (st, match o with FWrite n => if closed st then [] else [SWrite n] | _ => [] end,
                              match o with FWrite _ => if closed st then RFailed else ROk | _ => ROk end).
Proof. exact file_after_commit_is_inert. Qed.
Print Assumptions C14_after_commit_nothing_touches_the_files.

Module NonVacuous.
  (* three callback writes of 50 000 bytes: the calls of the real WriteFile, as strace shows them *)
  Example calls_50000x3 : write_file [50000; 50000; 50000] None true = ([SOpenTemp; SWrite 65536; SWrite 65536; SWrite 18928; SClose; SRename true], false).
  Proof. vm_compute. reflexivity. Qed.
  Example large_write_bypasses_the_buffer : fst (write_file [10; 200000; 5] None true) = [SOpenTemp; SWrite 65536; SWrite 134474; SWrite 5; SClose; SRename true].
  Proof. vm_compute. reflexivity. Qed.
  Example failing_writer : write_file [70000; 10; 10] (Some 2%nat) true = ([SOpenTemp; SWrite 70000; SClose; SUnlink], true).
  Proof. vm_compute. reflexivity. Qed.
  (* a 200 000-byte block straight through an empty buffer into a file limited to 131 072 bytes: short write, sticky error, unlink *)
  Example limited_direct_write : write_file_limited [200000] 131072 = ([SOpenTemp; SWrite 131072; SClose; SUnlink], true).
  Proof. vm_compute. reflexivity. Qed.
  Example limited_flush_fails : write_file_limited [10; 70000; 5] 65536 = ([SOpenTemp; SWrite 65536; SClose; SUnlink], true).
  Proof. vm_compute. reflexivity. Qed.
End NonVacuous.
