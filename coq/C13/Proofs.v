(* C13 — the renderer's state machine against a declarative flattening (flat), through one notion: the state after a list of
   leaves has been written (adv). *)
From Coq Require Import ZArith List Bool Arith Lia.
From Verif Require Import common.ListFacts C13.Model.
Import ListNotations.
Open Scope Z_scope.

(* the declarative reading of an attribute list: leaves with their full keys *)
Fixpoint flat (fuel : nat) (prefix : str) (a : attr) : list (str * str) :=
  match fuel with O => [] | S f =>
  let '(k, v) := a in
  if is_empty_attr k v then [] else
  match v with
  | VGroup l => flat_map (flat f (prefix ++ k ++ [46])) l
  | _ => [(prefix ++ k, scalar_text v)]
  end end.
(* does the attribute contribute a leaf at all (independent of the prefix) *)
Fixpoint has_leaf (fuel : nat) (a : attr) : bool :=
  match fuel with O => false | S f =>
  let '(k, v) := a in
  if is_empty_attr k v then false else
  match v with VGroup l => existsb (has_leaf f) l | _ => true end end.
(* solid: every non-empty group below has a leaf somewhere inside (a group of nothing but vanishing members is not solid) *)
Fixpoint solid (fuel : nat) (a : attr) : bool :=
  match fuel with O => true | S f =>
  match snd a with VGroup l => (match l with [] => true | _ => existsb (has_leaf f) l end) && forallb (solid f) l | _ => true end end.

Lemma flat_map_nil_iff {A B} (g : A -> list B) (h : A -> bool) l :
  (forall a, g a = [] <-> h a = false) -> (flat_map g l = [] <-> existsb h l = false).
Proof.
  intro H. induction l as [|a l IH]; cbn [flat_map existsb]; [tauto|].
  rewrite orb_false_iff, <- IH, <- H. split; [apply app_eq_nil|intros [-> ->]; reflexivity].
Qed.
Lemma flat_nil_iff : forall fuel p a, flat fuel p a = [] <-> has_leaf fuel a = false.
Proof.
  induction fuel as [|f IH]; intros p [k v]; cbn [flat has_leaf]; [tauto|].
  destruct (is_empty_attr k v); [tauto|]. destruct v as [x|z|b| | |l]; try (split; discriminate).
  apply flat_map_nil_iff, IH.
Qed.

Definition piece (p : str * str) : str := [32] ++ fst p ++ [61] ++ snd p.
Definition pieces (l : list (str * str)) : str := flat_map piece l.
Definition added (need : bool) (l : list (str * str)) : str := match l with [] => [] | _ => (if need then [32; 124] else []) ++ pieces l end.
Definition still (need : bool) (l : list (str * str)) : bool := match l with [] => need | _ => false end.

Lemma added_app need a b : added need (a ++ b) = added need a ++ added (still need a) b.
Proof.
  destruct a as [|x a]; [reflexivity|]. cbn [app added still]. destruct b as [|y b]; [cbn [added]; rewrite !app_nil_r; reflexivity|].
  cbn [added]. unfold pieces. rewrite <- app_assoc. f_equal. cbn [flat_map app]. rewrite <- app_assoc. f_equal. rewrite flat_map_app. reflexivity.
Qed.
Lemma still_app need a b : still need (a ++ b) = still (still need a) b.
Proof. destruct a; [reflexivity|]. cbn. destruct b; reflexivity. Qed.

(* the renderer's state after the leaves L have been written in the group in force *)
Definition adv (s : st) (L : list (str * str)) : st :=
  {| buf := buf s ++ added (needBar s) L; group := group s; needBar := still (needBar s) L |}.
Lemma adv_nil s : adv s [] = s.
Proof. unfold adv. cbn [added still]. rewrite app_nil_r. destruct s; reflexivity. Qed.
Lemma adv_app s a b : adv (adv s a) b = adv s (a ++ b).
Proof. unfold adv. cbn [buf group needBar]. rewrite added_app, still_app, app_assoc. reflexivity. Qed.
Lemma fold_adv {A} (step : st -> A -> st) (leaves : str -> A -> list (str * str)) l :
  Forall (fun a => forall s, step s a = adv s (leaves (group s) a)) l ->
  forall s, fold_left step l s = adv s (flat_map (leaves (group s)) l).
Proof.
  induction 1 as [|a l Ha _ IH]; intro s; cbn [fold_left flat_map]; [symmetry; apply adv_nil|].
  rewrite Ha, IH. apply adv_app.
Qed.

Lemma scalar_spec s k x : emit (wkey (bar s) k) x = adv s [(group s ++ k, x)].
Proof.
  destruct s as [sb sg [|]]; unfold emit, wkey, bar, adv; cbn [added still buf group needBar]; unfold pieces, piece;
    cbn [flat_map fst snd]; f_equal; rewrite ?app_nil_r; repeat rewrite <- app_assoc; reflexivity.
Qed.
Lemma group_bar s : group (bar s) = group s.
Proof. unfold bar. destruct (needBar s); reflexivity. Qed.
(* a group with leaves: the separator comes first, the group prefix is dropped afterwards *)
Lemma group_spec s g L : L <> [] ->
  let s2 := adv (add_group (bar s) g) L in {| buf := buf s2; group := group s; needBar := needBar s2 |} = adv s L.
Proof.
  intro NE. destruct L as [|p ps]; [congruence|]. destruct s as [sb sg [|]]; unfold adv, add_group, bar; cbn [added still buf group needBar];
    f_equal; rewrite <- app_assoc; reflexivity.
Qed.

Lemma append_attr_spec : forall fuel s a, solid fuel a = true ->
  append_attr fuel s a = adv s (flat fuel (group s) a).
Proof.
  induction fuel as [|f IH]; intros s [k v] Hs; cbn [append_attr flat]; [symmetry; apply adv_nil|].
  destruct (is_empty_attr k v); [symmetry; apply adv_nil|]. destruct v as [x|z|b| | |l]; try apply scalar_spec.
  cbn [solid snd] in Hs. apply andb_prop in Hs. destruct Hs as [Hleaf Hall].
  destruct l as [|a0 l0]; [symmetry; apply adv_nil|]. set (l := a0 :: l0) in *.
  rewrite (fold_adv (append_attr f) (flat f)) by (apply Forall_forall; intros a Ha s0; apply IH; exact (proj1 (forallb_forall _ _) Hall a Ha)).
  change (group (add_group (bar s) k)) with (group (bar s) ++ k ++ [46]). rewrite group_bar. apply group_spec. intro E. apply (flat_map_nil_iff _ (has_leaf f)) in E; [congruence|apply flat_nil_iff].
Qed.

Definition solid_attrs (l : list attr) : bool := forallb (solid DEPTH) l.
Lemma attrs_spec l s : solid_attrs l = true -> fold_left (append_attr DEPTH) l s = adv s (flat_map (flat DEPTH (group s)) l).
Proof.
  intro H. apply fold_adv, Forall_forall. intros a Ha s0. apply append_attr_spec. exact (proj1 (forallb_forall _ _) H a Ha).
Qed.

(* the leaves a handler's derivation list contributes, and the prefix it leaves in force *)
Fixpoint chain_leaves (prefix : str) (h : list entry) : list (str * str) * str :=
  match h with
  | [] => ([], prefix)
  | EGroup g :: r => chain_leaves (prefix ++ g ++ [46]) r
  | EAttrs l :: r => let '(ls, p) := chain_leaves prefix r in (flat_map (flat DEPTH prefix) l ++ ls, p)
  end.
Definition solid_entry (e : entry) : bool := match e with EGroup _ => true | EAttrs l => solid_attrs l end.

Definition in_group (s : st) (p : str) : st := {| buf := buf s; group := p; needBar := needBar s |}.
Lemma chain_spec : forall h s, forallb solid_entry h = true ->
  fold_left apply_entry h s = in_group (adv s (fst (chain_leaves (group s) h))) (snd (chain_leaves (group s) h)).
Proof.
  induction h as [|e h IH]; intros s H; cbn [fold_left chain_leaves fst snd].
  - rewrite adv_nil. destruct s; reflexivity.
  - cbn [forallb] in H. apply andb_prop in H. destruct H as [H1 H2]. destruct e as [g|l]; cbn [apply_entry].
    + rewrite IH by exact H2. reflexivity.
    + rewrite attrs_spec by exact H1. rewrite IH by exact H2. rewrite adv_app. cbn [adv group].
      destruct (chain_leaves (group s) h) as [ls p]. reflexivity.
Qed.

Definition line_leaves (h : list entry) (attrs : list attr) : list (str * str) :=
  fst (chain_leaves [] h) ++ flat_map (flat DEPTH (snd (chain_leaves [] h))) attrs.
Theorem render_spec h level msg attrs : forallb solid_entry h = true -> solid_attrs attrs = true ->
  render h level msg attrs = level_name level ++ header_time ++ msg ++ added true (line_leaves h attrs) ++ [10].
Proof.
  intros Hh Ha. unfold render. rewrite chain_spec by exact Hh. rewrite attrs_spec by exact Ha. cbn [adv in_group buf group needBar].
  unfold line_leaves. rewrite added_app. repeat rewrite <- app_assoc. reflexivity.
Qed.

(* a group of nothing but vanishing members still consumes the separator: the one place where the line is not the flat reading *)
Example group_of_nothing_leaves_a_dangling_bar :
  render [] 0 [109] [([103], VGroup [([], VNil)])] = level_name 0 ++ header_time ++ [109] ++ [32; 124] ++ [10]
  /\ line_leaves [] [([103], VGroup [([], VNil)])] = [].
Proof. split; vm_compute; reflexivity. Qed.

Theorem derive_keeps_parent h g l : firstn (length h) (with_group h g) = h /\ firstn (length h) (with_attrs h l) = h.
Proof.
  split; [destruct g|destruct l]; cbn [with_group with_attrs]; try apply firstn_all; apply firstn_app_exact.
Qed.

(* a history of the buffered handler: Handle calls interleaved with deliveries by the background goroutine *)
Inductive bop := BHandle (r : record) | BDeliver.
Definition bstep (cap : nat) (h : list entry) (b : bstate) (o : bop) : bstate := match o with BHandle r => handle_buffered cap h b r | BDeliver => deliver b end.
Fixpoint handled (h : list entry) (ops : list bop) : list str := match ops with [] => [] | BHandle r :: t => bytes_of h r :: handled h t | BDeliver :: t => handled h t end.
Inductive subseq {A} : list A -> list A -> Prop :=
| sub_nil : subseq [] []
| sub_keep x a b : subseq a b -> subseq (x :: a) (x :: b)
| sub_drop x a b : subseq a b -> subseq a (x :: b).
Lemma subseq_app {A} (a b c d : list A) : subseq a b -> subseq c d -> subseq (a ++ c) (b ++ d).
Proof. intros H H'. induction H; cbn; [exact H'|constructor; assumption..]. Qed.
Lemma handled_app h a b : handled h (a ++ b) = handled h a ++ handled h b.
Proof. induction a as [|[r|] a IH]; cbn; [reflexivity|rewrite IH; reflexivity|exact IH]. Qed.

Lemma bstep_inv cap h b o pre : subseq (written b ++ queue b) pre -> (length (queue b) <= cap)%nat ->
  subseq (written (bstep cap h b o) ++ queue (bstep cap h b o)) (pre ++ handled h [o]) /\ (length (queue (bstep cap h b o)) <= cap)%nat.
Proof.
  intros S L. destruct o as [r|]; cbn [bstep handled].
  - unfold handle_buffered. destruct (Nat.ltb_spec (length (queue b)) cap); cbn [queue written].
    + rewrite app_assoc, app_length. split; [apply subseq_app; [exact S|repeat constructor]|cbn; lia].
    + split; [|exact L]. rewrite <- (app_nil_r (_ ++ _)). apply subseq_app; [exact S|repeat constructor].
  - rewrite app_nil_r. unfold deliver. destruct (queue b) as [|x q] eqn:E; [rewrite E; auto|]. cbn [queue written length] in *.
    rewrite <- app_assoc. split; [exact S|lia].
Qed.
Theorem buffered_writes_invariant cap h : forall ops b0 pre, subseq (written b0 ++ queue b0) pre -> (length (queue b0) <= cap)%nat ->
  let b := fold_left (bstep cap h) ops b0 in
  subseq (written b ++ queue b) (pre ++ handled h ops) /\ (length (queue b) <= cap)%nat.
Proof.
  intros ops b0 pre S L.
  apply (fold_left_ind (bstep cap h) (fun l b => subseq (written b ++ queue b) (pre ++ handled h l) /\ (length (queue b) <= cap)%nat)).
  - rewrite app_nil_r. auto.
  - intros l o b [S' L']. rewrite handled_app, app_assoc. apply bstep_inv; assumption.
Qed.
Theorem buffered_writes_subsequence cap h : forall ops b0, queue b0 = [] -> written b0 = [] ->
  let b := fold_left (bstep cap h) ops b0 in
  subseq (written b ++ queue b) (handled h ops) /\ (length (queue b) <= cap)%nat.
Proof. intros ops b0 Q0 W0. apply (buffered_writes_invariant cap h ops b0 []); rewrite Q0, ?W0; [constructor|apply Nat.le_0_l]. Qed.

Theorem multi_handle_spec cs r :
  length (fst (multi_handle cs r)) = length cs /\
  (forall i c, nth_error cs i = Some c -> nth_error (fst (multi_handle cs r)) i = Some (enabled (c_min c) r)) /\
  (snd (multi_handle cs r) = false <-> forall c, In c cs -> enabled (c_min c) r = true -> c_beh c = BOk).
Proof.
  unfold multi_handle. cbn [fst snd]. split; [apply map_length|]. split.
  - intros i c H. rewrite nth_error_map, H. reflexivity.
  - rewrite <- not_true_iff_false, existsb_exists. split.
    + intros H c Hin He. destruct (c_beh c) eqn:B; [reflexivity|exfalso..]; apply H; exists c; rewrite He, B; auto.
    + intros H (c & Hin & Hc). apply andb_prop in Hc. destruct Hc as [He Hb]. rewrite (H c Hin He) in Hb. discriminate.
Qed.
