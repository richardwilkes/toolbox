(* C11 — invariants of every history of New/Append/Wrap operations (no side condition on the arguments: an accumulator may
   be passed as its own argument, aggregates may be appended to themselves). *)
From Coq Require Import ZArith List Bool Lia.
From Verif Require Import common.ListFacts C11.Model C11.Proofs.
Import ListNotations.
Open Scope nat_scope.

(* a node that records a cause carries that cause's message: Wrap keeps the cause reachable under the message it shows *)
Definition item_ok (i : item) : Prop := match icause i with Some c => imsg i = c | None => True end.
Definition st_ok (st : store) : Prop := Forall (Forall item_ok) st.
Definition Inv (s : state) : Prop := st_ok (fst s) /\ Forall (val_ok (fst s)) (snd s).

Lemma nth_Forall {A} (P : A -> Prop) l d i : Forall P l -> P d -> P (nth i l d).
Proof. intros H Hd. revert i. induction H; intros [|i]; cbn; auto. Qed.

Lemma items_ok st v : st_ok st -> Forall item_ok (items st v).
Proof. intro H. destruct v; cbn [items]; [constructor..|repeat constructor|]. unfold chain_of. apply nth_Forall; [exact H|constructor]. Qed.
Lemma set_chain_ok : forall st a c, st_ok st -> Forall item_ok c -> st_ok (set_chain st a c).
Proof.
  unfold st_ok. induction st as [|x st IH]; intros [|a] c H Hc; cbn [set_chain]; auto; inversion H; subst; constructor; auto.
Qed.
Lemma vget_ok st vs i : Forall (val_ok st) vs -> val_ok st (vget vs i).
Proof. intro H. exact (nth_Forall (val_ok st) vs VNil i H I). Qed.
Lemma val_ok_mono st st' v : length st <= length st' -> val_ok st v -> val_ok st' v.
Proof. intros Hl. destruct v; cbn [val_ok]; auto. lia. Qed.

Lemma push_ok st c : st_ok st -> Forall item_ok c ->
  st_ok (st ++ [c]) /\ length st <= length (st ++ [c]) /\ val_ok (st ++ [c]) (VRef (length st)).
Proof. intros H Hc. cbn [val_ok]. rewrite app_length. cbn [length]. split; [apply Forall_snoc; assumption|lia]. Qed.

Lemma add_arg_ok sc arg : st_ok (fst sc) -> st_ok (fst (add_arg sc arg)).
Proof.
  destruct sc as [st cur]. cbn [fst add_arg]. intro H. pose proof (items_ok st arg H) as Hi. destruct (items st arg); [exact H|].
  destruct cur as [a|]; cbn [fst].
  - apply set_chain_ok; [exact H|]. apply Forall_app. split; [apply (items_ok st (VRef a) H)|exact Hi].
  - apply Forall_snoc; assumption.
Qed.
Lemma start_ok st acc : st_ok st -> st_ok (fst (start st acc)).
Proof.
  intro H. destruct acc as [| | |id|a]; cbn [start fst]; auto.
  - apply push_ok; [exact H|repeat constructor].
  - destruct (chain_of st a); exact H.
Qed.

Lemma append_inv st acc args : st_ok st ->
  let '(st', r) := append st acc args in st_ok st' /\ length st <= length st' /\ val_ok st' r.
Proof.
  intro Hs. rewrite append_eq. destruct (loop_spec st acc args) as ((L & _) & C & _).
  split; [|split; [exact L|exact (head_ok _ C)]].
  apply (fold_left_inv (fun sc => st_ok (fst sc))); [intros sc x; apply add_arg_ok|exact (start_ok st acc Hs)].
Qed.

Definition eval (st : store) (vs : list val) (o : op) : store * val :=
  match o with
  | ONew m => new_error st m
  | OPlain id => (st, VPlain id)
  | ONilV => (st, VNil)
  | OTNil => (st, VTypedNilErr)
  | OTNilC => (st, VTypedNilCustom)
  | OEmpty => new_empty st
  | OAppend a args => append st (vget vs a) (map (vget vs) args)
  | OWrap i => wrap st (vget vs i)
  end.
Lemma step_eq st vs o : step (st, vs) o = (fst (eval st vs o), vs ++ [snd (eval st vs o)]).
Proof. destruct o; cbn [step eval]; try reflexivity; [destruct (append _ _ _)|destruct (wrap _ _)]; reflexivity. Qed.

Lemma eval_inv st vs o : st_ok st -> Forall (val_ok st) vs ->
  let '(st', v) := eval st vs o in st_ok st' /\ length st <= length st' /\ val_ok st' v.
Proof.
  intros Hs Hv. pose proof (fun i => vget_ok st vs i Hv) as G.
  destruct o as [m|id| | | | |a args|i]; cbn [eval new_error new_empty val_ok]; auto.
  - apply push_ok; [exact Hs|repeat constructor].
  - apply push_ok; [exact Hs|constructor].
  - apply append_inv, Hs.
  - specialize (G i). destruct (vget vs i); cbn [wrap val_ok] in *; auto. apply push_ok; [exact Hs|repeat constructor].
Qed.

Lemma step_inv s o : Inv s -> Inv (step s o) /\ length (fst s) <= length (fst (step s o)) /\
  length (snd (step s o)) = S (length (snd s)).
Proof.
  destruct s as [st vs]. intros [Hs Hv]. rewrite step_eq. pose proof (eval_inv st vs o Hs Hv) as H.
  destruct (eval st vs o) as [st' v]. destruct H as (Hs' & Hl & Hr). cbn [fst snd] in *.
  split; [split; [exact Hs'|]|split; [exact Hl|rewrite app_length; cbn; lia]].
  apply Forall_snoc; [|exact Hr]. eapply Forall_impl; [|exact Hv]. intro. apply val_ok_mono. exact Hl.
Qed.

(* one value per operation: by step_eq each operation adds its value at the end and leaves the earlier ones in place *)
Theorem history_inv : forall ops s, Inv s ->
  let s' := fold_left step ops s in
  Inv s' /\ length (fst s) <= length (fst s') /\ length (snd s') = length (snd s) + length ops.
Proof.
  intros ops s H. apply (fold_left_ind step (fun l s' => Inv s' /\ length (fst s) <= length (fst s') /\ length (snd s') = length (snd s) + length l)).
  - cbn [length]. auto with arith.
  - intros l o s1 (I1 & L1 & N1). destruct (step_inv s1 o I1) as (I2 & L2 & N2). rewrite app_length. cbn [length].
    split; [exact I2|lia].
Qed.

Lemma inv_init : Inv (([], []) : state).
Proof. split; constructor. Qed.

Theorem reachable_inv : forall ops,
  let s := fold_left step ops (([], []) : state) in
  Inv s /\ length (snd s) = length ops /\
  (forall i, val_ok (fst s) (vget (snd s) i)) /\
  (forall v it c, In it (items (fst s) v) -> icause it = Some c -> imsg it = c).
Proof.
  intro ops. destruct (history_inv ops _ inv_init) as (Hi & _ & Hn). split; [exact Hi|]. split; [exact Hn|]. destruct Hi as [Hs Hv]. split.
  - intro i. apply vget_ok. exact Hv.
  - intros v it c Hin Hc. pose proof (items_ok _ v Hs) as Hf. rewrite Forall_forall in Hf.
    specialize (Hf it Hin). unfold item_ok in Hf. rewrite Hc in Hf. exact Hf.
Qed.

Lemma head_error_or_nil st cur : error_or_nil_is_nil st (head_val cur) = true <-> items st (head_val cur) = [].
Proof. destruct cur as [a|]; cbn; [destruct (chain_of st a); split; congruence|tauto]. Qed.

Theorem append_count st acc args : (forall v, In v args -> val_ok st v /\ not_acc acc v) ->
  let '(st', r) := append st acc args in
  count st' r = Z.of_nat (length (items st acc) + length (flat_map (items st) args)) /\
  (error_or_nil_is_nil st' r = true <-> items st acc ++ flat_map (items st) args = []).
Proof.
  intro Hargs. pose proof (append_spec st acc args Hargs) as H. rewrite append_eq in *. destruct H as (Hi & _).
  rewrite <- app_length, <- Hi. split; [reflexivity|apply head_error_or_nil].
Qed.

Lemma wrap_idem st v : let '(st1, r1) := wrap st v in wrap st1 r1 = (st1, r1).
Proof. destruct v; reflexivity. Qed.
