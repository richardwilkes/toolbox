(* C11 — property theorems only. st is the store of *Error heads; items st v lists the non-nil, non-empty errors contained in
   the value v, in order. Arguments must exist in the store and (for the simple equation) differ from the accumulator itself:
   an accumulator passed as its own argument is read as grown so far, which Model.append states exactly. *)
From Coq Require Import ZArith List Bool.
From Verif Require Import C11.Model C11.Proofs C11.Proofs2.
Import ListNotations.
Open Scope nat_scope.

(* Append: nothing lost, nothing reordered, flattening of aggregates; nil exactly when there is nothing; the appended
   arguments (every head other than a non-empty accumulator) are unchanged; a non-empty *Error accumulator is returned itself *)
Theorem C11_append_collects_everything_in_order : forall st acc args,
  val_ok st acc -> (forall v, In v args -> val_ok st v /\ not_acc acc v) ->
  let '(st', r) := append st acc args in
  items st' r = items st acc ++ flat_map (items st) args /\
  (is_nil_result r = true <-> items st acc ++ flat_map (items st) args = []) /\
  length st <= length st' /\ val_ok st' r /\
  (forall b, b < length st -> (forall a, acc = VRef a -> chain_of st a <> [] -> b <> a) -> chain_of st' b = chain_of st b) /\
  (forall a, acc = VRef a -> chain_of st a <> [] -> r = VRef a).
Proof. intros st acc args _. apply append_spec. Qed.
Print Assumptions C11_append_collects_everything_in_order.

(* Count and ErrorOrNil of the result: Count is the number of contained errors, ErrorOrNil is nil exactly when there are none *)
Theorem C11_append_count_and_error_or_nil : forall st acc args,
  val_ok st acc -> (forall v, In v args -> val_ok st v /\ not_acc acc v) ->
  let '(st', r) := append st acc args in
  count st' r = Z.of_nat (length (items st acc) + length (flat_map (items st) args)) /\
  (error_or_nil_is_nil st' r = true <-> items st acc ++ flat_map (items st) args = []).
Proof. intros st acc args _. apply append_count. Qed.
Print Assumptions C11_append_count_and_error_or_nil.

(* chains of repeated Append on an accumulator *)
Theorem C11_append_chain : forall st a args1 args2, a < length st -> chain_of st a <> [] ->
  (forall v, In v (args1 ++ args2) -> val_ok st v /\ not_acc (VRef a) v) ->
  let '(st1, r1) := append st (VRef a) args1 in
  let '(st2, r2) := append st1 r1 args2 in
  r2 = VRef a /\ items st2 r2 = chain_of st a ++ flat_map (items st) args1 ++ flat_map (items st) args2.
Proof. intros st a args1 args2 _. apply append_twice. Qed.
Print Assumptions C11_append_chain.

(* Wrap / WrapTyped: nil for nil and typed nil, an existing *Error unchanged, otherwise a fresh error carrying the cause *)
Theorem C11_wrap : forall st v, val_ok st v ->
  let '(st', r) := wrap st v in
  (match v with VNil | VTypedNilErr | VTypedNilCustom => r = VNil /\ st' = st | VRef a => r = VRef a /\ st' = st
   | VPlain id => r = VRef (length st) /\ items st' r = [wrap_item id] end) /\
  length st <= length st' /\ (forall b, b < length st -> chain_of st' b = chain_of st b).
Proof. intros st v _. apply wrap_spec. Qed.
Print Assumptions C11_wrap.

(* Wrap is idempotent: wrapping its own result returns that result and leaves the store alone *)
Theorem C11_wrap_idempotent : forall st v, let '(st1, r1) := wrap st v in wrap st1 r1 = (st1, r1).
Proof. exact wrap_idem. Qed.
Print Assumptions C11_wrap_idempotent.

(* every history of New/plain/nil/typed-nil/&Error{}/Append/Wrap operations, with NO side condition (the accumulator may be its
   own argument, an aggregate may be appended to itself): every value handed out refers to an existing head - so the hypothesis
   val_ok of the theorems above is met by whatever a program has built -, the k-th operation defines the k-th value, and every
   node that records a cause shows exactly that cause's message (Wrap never detaches a cause from its text, Append never
   rewrites a node) *)
Theorem C11_every_history_well_formed : forall ops,
  let s := fold_left step ops (([], []) : state) in
  Inv s /\ length (snd s) = length ops /\
  (forall i, val_ok (fst s) (vget (snd s) i)) /\
  (forall v it c, In it (items (fst s) v) -> icause it = Some c -> imsg it = c).
Proof. exact reachable_inv. Qed.
Print Assumptions C11_every_history_well_formed.

(* from any well-formed state: heads are never discarded by a history and the invariant persists *)
Theorem C11_history_preserves : forall ops s, Inv s ->
  let s' := fold_left step ops s in
  Inv s' /\ length (fst s) <= length (fst s') /\ length (snd s') = length (snd s) + length ops.
Proof. exact history_inv. Qed.
Print Assumptions C11_history_preserves.

(* non-vacuity: a history with a self-append and a wrapped plain error; its last value has a node with a cause *)
Example C11_ex_history_with_cause :
  let s := fold_left step [ONew 1; OPlain 7; OWrap 1; OAppend 0 [2; 0]; OAppend 3 [3]] (([], []) : state) in
  map imsg (items (fst s) (vget (snd s) 4)) = [1; 7; 1; 7; 1; 7; 1; 7]%Z /\
  map icause (items (fst s) (vget (snd s) 2)) = [Some 7%Z].
Proof. split; reflexivity. Qed.

(* regression: the two histories that failed before the repairs *)
Example C11_ex_aggregate_then_more :
  let s0 : state := ([], []) in
  let s := fold_left step [ONew 1; ONew 2; ONew 3; ONew 4; OAppend 1 [2]; OAppend 0 [1; 3]] s0 in
  map imsg (items (fst s) (vget (snd s) 5)) = [1; 2; 3; 4]%Z.
Proof. reflexivity. Qed.
Example C11_ex_nil_accumulator_copies :
  let s := fold_left step [ONew 1; ONew 2; OAppend 0 [1]; ONilV; ONew 3; OAppend 3 [2; 4]] (([], []) : state) in
  map imsg (items (fst s) (vget (snd s) 2)) = [1; 2]%Z /\ map imsg (items (fst s) (vget (snd s) 5)) = [1; 2; 3]%Z.
Proof. split; reflexivity. Qed.
