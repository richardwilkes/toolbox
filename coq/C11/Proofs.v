(* C11 — Append is a loop over its arguments whose state is the store and the head being extended; what it keeps is one
   extension relation on these states (ext). *)
From Coq Require Import ZArith List Bool Lia.
From Verif Require Import common.ListFacts C11.Model.
Import ListNotations.
Open Scope nat_scope.

Lemma chain_app_old st x b : b < length st -> chain_of (st ++ [x]) b = chain_of st b.
Proof. intro H. unfold chain_of. apply app_nth1. exact H. Qed.
(* a head outside the store reads as empty *)
Lemma chain_lt st a : chain_of st a <> [] -> a < length st.
Proof. intro H. destruct (Nat.lt_ge_cases a (length st)) as [L|L]; [exact L|]. destruct H. apply nth_overflow, L. Qed.
Lemma chain_app_new st x : chain_of (st ++ [x]) (length st) = x.
Proof. unfold chain_of. rewrite app_nth2 by lia. rewrite Nat.sub_diag. reflexivity. Qed.
Lemma set_chain_length st a c : length (set_chain st a c) = length st.
Proof. revert a. induction st as [|x st IH]; intros [|a]; cbn; auto. Qed.
Lemma chain_set_same st a c : a < length st -> chain_of (set_chain st a c) a = c.
Proof. unfold chain_of. revert a. induction st as [|x st IH]; intros [|a] H; cbn in *; try lia; auto. apply IH. lia. Qed.
Lemma chain_set_other st a c b : b <> a -> chain_of (set_chain st a c) b = chain_of st b.
Proof. unfold chain_of. revert a b. induction st as [|x st IH]; intros [|a] b H; destruct b; cbn; auto; congruence. Qed.

Definition val_ok (st : store) (v : val) : Prop := match v with VRef b => b < length st | _ => True end.
Definition not_acc (acc v : val) : Prop := match acc, v with VRef a, VRef b => a <> b | _, _ => True end.

(* the state of the loop: the store and the head being extended (None while the root is still nil) *)
Definition lstate := (store * option nat)%type.
Definition cur_items (sc : lstate) : list item := match snd sc with Some a => chain_of (fst sc) a | None => [] end.
(* a head being extended is never empty (so it is in the store, by chain_lt): it was the non-empty accumulator or has received
   a non-empty argument *)
Definition cur_ok (sc : lstate) : Prop := match snd sc with Some a => chain_of (fst sc) a <> [] | None => True end.
Definition arg_ok (sc : lstate) (v : val) : Prop := match v with VRef b => snd sc <> Some b | _ => True end.
(* the clause [snd sc' <> Some b] is what makes ext transitive: a head taken fresh is none of the old ones *)
Definition ext (sc sc' : lstate) : Prop :=
  length (fst sc) <= length (fst sc') /\
  (forall b, b < length (fst sc) -> snd sc <> Some b -> chain_of (fst sc') b = chain_of (fst sc) b /\ snd sc' <> Some b) /\
  (forall a, snd sc = Some a -> snd sc' = Some a).

Lemma ext_refl sc : ext sc sc.
Proof. repeat split; auto. Qed.
Lemma ext_trans sc1 sc2 sc3 : ext sc1 sc2 -> ext sc2 sc3 -> ext sc1 sc3.
Proof.
  intros (L1 & F1 & K1) (L2 & F2 & K2). split; [lia|]. split; [|auto].
  intros b Hb Hn. destruct (F1 b Hb Hn) as [E1 N1]. destruct (F2 b ltac:(lia) N1) as [E2 N2]. split; [congruence|exact N2].
Qed.

(* an accumulator passed as its own argument is read as grown so far (the Go loop reads it when its turn comes): l *)
Definition read (sc0 : lstate) (l : list item) (v : val) : list item :=
  match v, snd sc0 with VRef b, Some a => if a =? b then l else chain_of (fst sc0) b | _, _ => items (fst sc0) v end.
Definition collect (sc0 : lstate) (args : list val) (l0 : list item) : list item := fold_left (fun l v => l ++ read sc0 l v) args l0.
Lemma read_ext sc0 sc v : ext sc0 sc -> val_ok (fst sc0) v -> items (fst sc) v = read sc0 (cur_items sc) v.
Proof.
  intros (_ & F & K) H. destruct v as [| | | |b]; try reflexivity. cbn [items read val_ok] in *. destruct (snd sc0) as [a|].
  - destruct (Nat.eqb_spec a b) as [->|N]; [unfold cur_items; rewrite (K b eq_refl); reflexivity|]. apply F; [exact H|congruence].
  - apply F; [exact H|discriminate].
Qed.
Lemma collect_plain sc0 args : Forall (arg_ok sc0) args -> forall l0, collect sc0 args l0 = l0 ++ flat_map (items (fst sc0)) args.
Proof.
  induction 1 as [|v args Hv _ IH]; intro l0; cbn [collect fold_left flat_map]; [symmetry; apply app_nil_r|].
  fold (collect sc0 args (l0 ++ read sc0 l0 v)). rewrite IH, <- app_assoc. do 2 f_equal.
  destruct v as [| | | |b]; try reflexivity. cbn [arg_ok read items] in *. destruct (snd sc0) as [a|]; [|reflexivity].
  destruct (Nat.eqb_spec a b); [congruence|reflexivity].
Qed.

Lemma add_arg_spec sc arg : cur_ok sc ->
  ext sc (add_arg sc arg) /\ cur_ok (add_arg sc arg) /\ cur_items (add_arg sc arg) = cur_items sc ++ items (fst sc) arg.
Proof.
  destruct sc as [st cur]. unfold add_arg. cbn [fst]. intro C. destruct (items st arg) as [|i its].
  - rewrite app_nil_r. auto using ext_refl.
  - assert (N : forall c, c ++ i :: its <> []) by (intros [|? ?]; discriminate).
    destruct cur as [a|]; unfold ext, cur_ok, cur_items in *; cbn [fst snd] in *.
    + rewrite chain_set_same, set_chain_length by exact (chain_lt st a C). repeat split; auto.
      apply chain_set_other. congruence.
    + rewrite chain_app_new, app_length. cbn [length]. repeat split; try lia; try discriminate.
      * apply chain_app_old. assumption.
      * intros [= <-]. lia.
Qed.

Lemma fold_add_spec sc0 sc args : ext sc0 sc -> cur_ok sc ->
  let sc' := fold_left add_arg args sc in
  ext sc0 sc' /\ cur_ok sc' /\ (Forall (val_ok (fst sc0)) args -> cur_items sc' = collect sc0 args (cur_items sc)).
Proof.
  intros E C. apply (fold_left_ind add_arg (fun l sc' => ext sc0 sc' /\ cur_ok sc' /\
    (Forall (val_ok (fst sc0)) l -> cur_items sc' = collect sc0 l (cur_items sc)))).
  - auto.
  - intros l x sc1 (E1 & C1 & I1). destruct (add_arg_spec sc1 x C1) as (E2 & C2 & I2).
    split; [exact (ext_trans _ _ _ E1 E2)|]. split; [exact C2|]. intro H. apply Forall_app in H. destruct H as [Hl Hx].
    apply Forall_inv in Hx. unfold collect. rewrite I2, (read_ext _ _ _ E1 Hx), fold_left_app, (I1 Hl). reflexivity.
Qed.

Definition start (st : store) (acc : val) : lstate :=
  match acc with
  | VRef a => match chain_of st a with [] => (st, None) | _ => (st, Some a) end
  | VPlain id => (st ++ [[wrap_item id]], Some (length st))
  | VNil | VTypedNilErr | VTypedNilCustom => (st, None)
  end.
Definition loop (st : store) (acc : val) (args : list val) : lstate := fold_left add_arg args (start st acc).
Definition head_val (cur : option nat) : val := match cur with Some a => VRef a | None => VTypedNilErr end.
Lemma append_eq st acc args : append st acc args = (fst (loop st acc args), head_val (snd (loop st acc args))).
Proof. unfold append, loop, start, head_val. cbv zeta. destruct (fold_left add_arg args _). reflexivity. Qed.

(* the head an accumulator contributes in place: an *Error whose chain is not empty *)
Definition own (st : store) (acc : val) : option nat :=
  match acc with VRef a => match chain_of st a with [] => None | _ => Some a end | _ => None end.
Lemma own_spec st acc a : own st acc = Some a <-> acc = VRef a /\ chain_of st a <> [].
Proof.
  destruct acc as [| | | |a']; cbn [own]; try (split; [discriminate|intros [[=] _]]).
  destruct (chain_of st a') eqn:E; split; try discriminate.
  - intros [[= ->] N]. congruence.
  - intros [= ->]. rewrite E. split; [reflexivity|discriminate].
  - intros [[= ->] _]. reflexivity.
Qed.
Lemma own_arg st acc v : not_acc acc v -> arg_ok (st, own st acc) v.
Proof.
  destruct v as [| | | |b]; cbn [arg_ok snd]; auto. intros Hn O. apply own_spec in O. destruct O as [-> _]. exact (Hn eq_refl).
Qed.
Lemma start_spec st acc :
  ext (st, own st acc) (start st acc) /\ cur_ok (start st acc) /\ cur_items (start st acc) = items st acc.
Proof.
  assert (N : ext (st, None) (st, None) /\ cur_ok (st, None) /\ cur_items (st, None) = []).
  { split; [apply ext_refl|]. split; [exact I|reflexivity]. }
  destruct acc as [| | |id|a]; cbn [start own items]; try exact N.
  - exact (add_arg_spec (st, None) (VPlain id) I).
  - destruct (chain_of st a) eqn:E; [exact N|]. split; [apply ext_refl|]. unfold cur_ok, cur_items. cbn [fst snd]. rewrite E.
    split; [discriminate|reflexivity].
Qed.
Lemma loop_spec st acc args :
  ext (st, own st acc) (loop st acc args) /\ cur_ok (loop st acc args) /\
  (Forall (val_ok st) args -> cur_items (loop st acc args) = collect (st, own st acc) args (items st acc)).
Proof. destruct (start_spec st acc) as (E0 & C0 & I0). rewrite <- I0. exact (fold_add_spec _ _ args E0 C0). Qed.

Lemma head_items sc : items (fst sc) (head_val (snd sc)) = cur_items sc.
Proof. destruct sc as [st [a|]]; reflexivity. Qed.
Lemma head_ok sc : cur_ok sc -> val_ok (fst sc) (head_val (snd sc)).
Proof. destruct sc as [st [a|]]; [exact (chain_lt st a)|exact id]. Qed.
Lemma head_nil sc : cur_ok sc -> (is_nil_result (head_val (snd sc)) = true <-> cur_items sc = []).
Proof. destruct sc as [st [a|]]; [intro H; split; [discriminate|intro; contradiction]|split; reflexivity]. Qed.

Theorem append_general st acc args : Forall (val_ok st) args ->
  let '(st', r) := append st acc args in
  items st' r = collect (st, own st acc) args (items st acc) /\
  (is_nil_result r = true <-> collect (st, own st acc) args (items st acc) = []) /\
  length st <= length st' /\ val_ok st' r /\
  (forall b, b < length st -> (forall a, acc = VRef a -> chain_of st a <> [] -> b <> a) -> chain_of st' b = chain_of st b) /\
  (forall a, acc = VRef a -> chain_of st a <> [] -> r = VRef a).
Proof.
  intro Hargs. rewrite append_eq. destruct (loop_spec st acc args) as ((L & F & K) & C & I).
  rewrite <- (I Hargs), head_items. cbn [fst snd] in *.
  split; [reflexivity|]. split; [exact (head_nil _ C)|]. split; [exact L|]. split; [exact (head_ok _ C)|]. split.
  - intros b Hb Hne. apply F; [exact Hb|]. intro O. apply own_spec in O. destruct O as [-> N]. exact (Hne b eq_refl N eq_refl).
  - intros a -> N. rewrite (K a); [reflexivity|]. apply own_spec. auto.
Qed.

Theorem append_spec st acc args : (forall v, In v args -> val_ok st v /\ not_acc acc v) ->
  let '(st', r) := append st acc args in
  items st' r = items st acc ++ flat_map (items st) args /\
  (is_nil_result r = true <-> items st acc ++ flat_map (items st) args = []) /\
  length st <= length st' /\ val_ok st' r /\
  (forall b, b < length st -> (forall a, acc = VRef a -> chain_of st a <> [] -> b <> a) -> chain_of st' b = chain_of st b) /\
  (forall a, acc = VRef a -> chain_of st a <> [] -> r = VRef a).
Proof.
  intro Hargs. rewrite <- (collect_plain (st, own st acc) args).
  - apply append_general, Forall_forall. intros v Hv. apply Hargs, Hv.
  - apply Forall_forall. intros v Hv. apply own_arg, Hargs, Hv.
Qed.

Theorem wrap_spec st v :
  let '(st', r) := wrap st v in
  (match v with VNil | VTypedNilErr | VTypedNilCustom => r = VNil /\ st' = st | VRef a => r = VRef a /\ st' = st
   | VPlain id => r = VRef (length st) /\ items st' r = [wrap_item id] end) /\
  length st <= length st' /\ (forall b, b < length st -> chain_of st' b = chain_of st b).
Proof.
  destruct v; cbn [wrap]; repeat split; auto.
  - apply chain_app_new.
  - rewrite app_length. lia.
  - intros b Hb. apply chain_app_old. exact Hb.
Qed.

Lemma append_append st a args1 args2 : chain_of st a <> [] ->
  let '(st1, r1) := append st (VRef a) args1 in append st1 r1 args2 = append st (VRef a) (args1 ++ args2).
Proof.
  intro Hne. rewrite !append_eq. destruct (loop_spec st (VRef a) args1) as ((_ & _ & K) & C & _).
  unfold loop in *. rewrite fold_left_app. destruct (fold_left add_arg args1 _) as [st1 cur1]. cbn [fst snd] in *.
  rewrite (K a) in * by (apply own_spec; auto). cbn [cur_ok fst snd head_val start] in *. destruct (chain_of st1 a); [congruence|reflexivity].
Qed.

Theorem append_twice st a args1 args2 : chain_of st a <> [] ->
  (forall v, In v (args1 ++ args2) -> val_ok st v /\ not_acc (VRef a) v) ->
  let '(st1, r1) := append st (VRef a) args1 in
  let '(st2, r2) := append st1 r1 args2 in
  r2 = VRef a /\ items st2 r2 = chain_of st a ++ flat_map (items st) args1 ++ flat_map (items st) args2.
Proof.
  intros Hne Hargs. pose proof (append_append st a args1 args2 Hne) as E.
  destruct (append st (VRef a) args1) as [st1 r1]. rewrite E.
  pose proof (append_spec st (VRef a) (args1 ++ args2) Hargs) as S. destruct (append st (VRef a) (args1 ++ args2)) as [st2 r2].
  destruct S as (I & _ & _ & _ & _ & R). rewrite <- flat_map_app. split; [apply R; auto|exact I].
Qed.
