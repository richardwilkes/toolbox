From Coq Require Import ZArith List Bool Lia.
From Verif Require Import common.Word64 C03.Model C03.Proofs C04.Model C04.Proofs.
Import ListNotations.
Open Scope Z_scope.

Definition digitc (c : Z) : Prop := 48 <= c <= 57.
Definition plainc (c : Z) : Prop := c <> 44 /\ c <> 46 /\ c <> 69 /\ c <> 101.
Definition plain (s : bytes) : Prop := Forall plainc s.
Lemma digits_plain s : Forall digitc s -> plain s.
Proof. apply Forall_impl. unfold digitc, plainc. lia. Qed.

Lemma plain_no44 s : plain s -> forall c, In c s -> c <> 44.
Proof. intros H c Hc. apply (proj1 (Forall_forall _ _) H) in Hc. apply Hc. Qed.
Lemma existsb_plain s : plain s -> existsb (fun c => (c =? 69) || (c =? 101)) s = false.
Proof.
  induction 1 as [|c s Hc Hs IH]; [reflexivity|]. cbn [existsb]. rewrite IH. unfold plainc in Hc.
  rewrite (proj2 (Z.eqb_neq c 69)), (proj2 (Z.eqb_neq c 101)) by lia. reflexivity.
Qed.
Lemma split_dot_app A t : forall acc, plain A -> split_dot (A ++ t) acc = split_dot t (rev A ++ acc).
Proof.
  induction A as [|c A IH]; intros acc H; [reflexivity|]. inversion H as [|? ? Hc HA]; subst. unfold plainc in Hc.
  cbn [split_dot app rev]. rewrite (proj2 (Z.eqb_neq c 46)), IH, <- app_assoc by (assumption || lia). reflexivity.
Qed.
Lemma split_all_app A t : forall cur, plain A -> split_all_dots (A ++ t) cur = split_all_dots t (rev A ++ cur).
Proof.
  induction A as [|c A IH]; intros cur H; [reflexivity|]. inversion H as [|? ? Hc HA]; subst. unfold plainc in Hc.
  cbn [split_all_dots app rev]. rewrite (proj2 (Z.eqb_neq c 46)), IH, <- app_assoc by (assumption || lia). reflexivity.
Qed.

(* the parser after the split, as named parts: fx_core is definitionally the body of fx_from_string *)
Definition wr (wide : bool) (x : Z) := if wide then x else swrap x.
Definition pnum (wide : bool) (s : bytes) : option Z := if wide then parse_signed s else parseInt64 s.
Lemma pnum_ok wide s v : parse_signed s = Some v -> (wide = false -> fits v) -> pnum wide s = Some v.
Proof.
  intros P F. destruct wide; [exact P|]. unfold pnum, parseInt64. rewrite P. destruct (F eq_refl) as [F1 F2].
  rewrite (proj2 (Z.leb_le _ _) F1), (proj2 (Z.ltb_lt _ _) F2). reflexivity.
Qed.

Section Core.
Variable places : nat.
Definition r0_of (wide : bool) (p0 : bytes) : option (bool * Z) :=
  match p0 with
  | [] => Some (false, 0)
  | _ => if beq p0 [45] || beq p0 [45; 48] then Some (true, 0)
         else match pnum wide p0 with
              | None => None
              | Some v => let '(neg, v) := if (v <? 0) || head_is 45 p0 then (true, wr wide (- v)) else (false, v) in Some (neg, wr wide (v * mult places))
              end
  end.
Definition r1_of (wide : bool) (value : Z) (p1 : option bytes) : option Z :=
  match p1 with
  | None => Some value
  | Some fr =>
    let cutoff := S places in
    let buf := 49 :: fr in
    let buf := buf ++ repeat 48 (cutoff - length buf) in
    let frac := firstn cutoff buf in
    match pnum wide frac with None => None | Some f => Some (wr wide (value + wr wide (f - mult places))) end
  end.
Definition fin (wide neg : bool) (value : Z) : Z := if wide then clamp128 (if neg then - value else value) else (if neg then swrap (- value) else value).
Definition fx_core (wide : bool) (p0 : bytes) (p1 : option bytes) : pres :=
  match r0_of wide p0 with
  | None => PErr
  | Some (neg, value) => match r1_of wide value p1 with None => PErr | Some value => POk (fin wide neg value) end
  end.
Lemma from_string_core wide str : str <> [] ->
  fx_from_string places wide str =
  let s := filter (fun c => negb (c =? 44)) str in
  if existsb (fun c => (c =? 69) || (c =? 101)) s then PUnmodelled else fx_core wide (fst (split_dot s [])) (snd (split_dot s [])).
Proof. intro H. destruct str; [congruence|]. unfold fx_from_string. cbv zeta. destruct (split_dot _ []). reflexivity. Qed.
Lemma from_string_dot wide A B : plain A -> plain B -> fx_from_string places wide (A ++ 46 :: B) = fx_core wide A (Some B).
Proof.
  intros HA HB. rewrite from_string_core by (destruct A; discriminate). cbv zeta.
  assert (F : filter (fun c => negb (c =? 44)) (A ++ 46 :: B) = A ++ 46 :: B).
  { rewrite filter_app. cbn [filter]. change (46 =? 44) with false. cbn [negb]. rewrite !filter_id by (apply plain_no44; assumption). reflexivity. }
  assert (X : existsb (fun c => (c =? 69) || (c =? 101)) (A ++ 46 :: B) = false).
  { rewrite existsb_app. cbn [existsb]. rewrite !existsb_plain by assumption. reflexivity. }
  rewrite F, X, split_dot_app by exact HA. cbn [split_dot]. rewrite Z.eqb_refl, app_nil_r, rev_involutive. reflexivity.
Qed.
Lemma from_string_nodot wide A : A <> [] -> plain A -> fx_from_string places wide A = fx_core wide A None.
Proof.
  intros Hne HA. rewrite from_string_core by exact Hne. cbv zeta.
  rewrite filter_id, existsb_plain by (try apply plain_no44; exact HA). rewrite <- (app_nil_r A), split_dot_app by exact HA.
  cbn [split_dot fst snd]. rewrite !app_nil_r, rev_involutive. reflexivity.
Qed.
End Core.

Lemma mult_range places : (1 <= places <= 16)%nat -> 10 <= mult places <= 10000000000000000.
Proof.
  intro Hp. unfold mult. split.
  - change 10 with (10 ^ 1) at 1. apply Z.pow_le_mono_r; lia.
  - change 10000000000000000 with (10 ^ 16). apply Z.pow_le_mono_r; lia.
Qed.

Lemma digits_shape k : forall f n acc, (k < f)%nat -> 10 ^ Z.of_nat k <= n < 2 * 10 ^ Z.of_nat k ->
  exists t, digits_aux f n acc = 49 :: t ++ acc /\ length t = k.
Proof.
  induction k as [|k IH]; intros f n acc Hf Hn; (destruct f as [|f]; [lia|]); cbn [digits_aux].
  - change (10 ^ Z.of_nat 0) with 1 in Hn. assert (n = 1) by lia. subst n. exists []. split; reflexivity.
  - rewrite Nat2Z.inj_succ, Z.pow_succ_r in Hn by lia. assert (0 < 10 ^ Z.of_nat k) by (apply Z.pow_pos_nonneg; lia).
    destruct (Z.ltb_spec n 10); [lia|].
    destruct (IH f (n / 10) ((48 + n mod 10) :: acc) ltac:(lia)) as (t & E & L).
    { split; [apply Z.div_le_lower_bound; lia|apply Z.div_lt_upper_bound; lia]. }
    exists (t ++ [48 + n mod 10]). split; [rewrite E, <- app_assoc; reflexivity|rewrite app_length, L; cbn; lia].
Qed.
Lemma rev_repeat (x : Z) k : rev (repeat x k) = repeat x k.
Proof. induction k as [|k IH]; [reflexivity|]. cbn [repeat rev]. rewrite IH. symmetry. apply repeat_cons. Qed.
Lemma strip_shape r : exists k, r = repeat 48 k ++ strip_trailing_zeros_rev r.
Proof.
  induction r as [|c r IH]; [exists 0%nat; reflexivity|]. cbn [strip_trailing_zeros_rev]. destruct (Z.eqb_spec c 48) as [->|N].
  - destruct IH as [k E]. exists (S k). cbn [repeat app]. f_equal. exact E.
  - exists 0%nat. reflexivity.
Qed.
Lemma body_shape t : exists k, t = rev (strip_trailing_zeros_rev (rev t)) ++ repeat 48 k.
Proof. destruct (strip_shape (rev t)) as [k E]. exists k. rewrite <- (rev_involutive t) at 1. rewrite E at 1. rewrite rev_app_distr, rev_repeat. reflexivity. Qed.
Lemma strip_incl r : incl (strip_trailing_zeros_rev r) r.
Proof. induction r as [|c r IH]; [apply incl_refl|]. cbn [strip_trailing_zeros_rev]. destruct (c =? 48); [apply incl_tl; exact IH|apply incl_refl]. Qed.

Lemma head_digit_not s c : (exists d r, s = d :: r /\ 48 <= d <= 57) -> c < 48 -> head_is c s = false.
Proof. intros (d & r & -> & Hd) Hc. cbn. apply Z.eqb_neq. lia. Qed.
Lemma beq_head_false d r x y : d <> x -> beq (d :: r) (x :: y) = false.
Proof. intro H. cbn. rewrite (proj2 (Z.eqb_neq d x) H). reflexivity. Qed.

Definition fitsw (wide : bool) (v : Z) : Prop := if wide then - P127 <= v < P127 else fits v.
Lemma clamp_id v : - P127 <= v < P127 -> clamp128 v = v.
Proof. intro H. unfold clamp128. destruct (Z.ltb_spec v (- P127)); [lia|]. destruct (Z.leb_spec P127 v); [lia|reflexivity]. Qed.

Lemma filter_idem (s : bytes) : filter (fun c => negb (c =? 44)) (filter (fun c => negb (c =? 44)) s) = filter (fun c => negb (c =? 44)) s.
Proof. induction s as [|c s IH]; [reflexivity|]. cbn [filter]. destruct (negb (c =? 44)) eqn:E; [cbn [filter]; rewrite E; f_equal; exact IH|exact IH]. Qed.
Lemma from_string_filter places wide s : filter (fun c => negb (c =? 44)) s <> [] ->
  fx_from_string places wide s = fx_from_string places wide (filter (fun c => negb (c =? 44)) s).
Proof.
  intros H2. rewrite (from_string_core places wide _ H2), from_string_core by (intros ->; exact (H2 eq_refl)). cbv zeta.
  rewrite filter_idem. reflexivity.
Qed.

Definition numeral (s : bytes) : Prop :=
  exists sg D tl, s = sg ++ D ++ tl /\ (sg = [] \/ sg = [45]) /\ Forall digitc D /\ D <> [] /\ (tl = [] \/ exists B, tl = 46 :: B /\ plain B).
Lemma numeral_ne s : numeral s -> s <> [].
Proof. intros (sg & D & tl & -> & _ & _ & Hne & _) E. apply app_eq_nil in E. destruct E as [_ E]. apply app_eq_nil in E. destruct E as [E _]. exact (Hne E). Qed.
Theorem comma_strip s : numeral s -> filter (fun c => negb (c =? 44)) (comma_from_string_num s) = s.
Proof.
  intros (sg & D & tl & -> & Hsg & HD & HDne & Htl). pose proof (digits_plain D HD) as PD.
  assert (E : comma_from_string_num (sg ++ D ++ tl) = sg ++ comma_int D ++ tl).
  { assert (S : split_all_dots (D ++ tl) [] = D :: match tl with [] => [] | _ :: B => [B] end).
    { rewrite split_all_app by exact PD. destruct Htl as [->|(B & -> & PB)]; cbn [split_all_dots]; rewrite app_nil_r, rev_involutive; [reflexivity|].
      rewrite Z.eqb_refl, <- (app_nil_r B), split_all_app by exact PB. cbn [split_all_dots]. rewrite !app_nil_r, rev_involutive. reflexivity. }
    destruct D as [|d D']; [congruence|]. assert (Hd : 48 <= d <= 57) by (inversion HD; assumption).
    destruct Hsg as [->| ->]; unfold comma_from_string_num; cbn [app]; [rewrite (proj2 (Z.eqb_neq d 45)) by lia|change (45 =? 45) with true; cbv iota];
      cbn [app] in S; rewrite S; destruct Htl as [->|(B & -> & _)]; reflexivity. }
  rewrite E, !filter_app. rewrite (comma_int_strip D (plain_no44 D PD)). f_equal; [destruct Hsg as [->| ->]; reflexivity|]. f_equal.
  destruct Htl as [->|(B & -> & PB)]; [reflexivity|]. cbn [filter]. change (46 =? 44) with false. cbn [negb]. rewrite filter_id by exact (plain_no44 B PB). reflexivity.
Qed.
