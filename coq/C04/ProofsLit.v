(* C04 — FromString of a plain decimal literal (optional sign, optional integer part, optional fraction of any length) is that
   number truncated toward zero to D places. *)
From Coq Require Import ZArith List Bool Lia.
From Verif Require Import common.Word64 C03.Model C03.Proofs C04.Model C04.Proofs C04.ProofsRT.
Import ListNotations.
Open Scope Z_scope.

Definition valacc (ds : bytes) (acc : Z) : Z := fold_left (fun a c => a * 10 + (c - 48)) ds acc.
Definition val (ds : bytes) : Z := valacc ds 0.
Lemma pdigits_val ds : forall acc, Forall digitc ds -> pdigits ds acc = Some (valacc ds acc).
Proof.
  induction ds as [|c ds IH]; intros acc H; [reflexivity|]. inversion H as [|? ? Hc Hd]; subst. cbn [pdigits valacc fold_left].
  rewrite (proj2 (is_digit_iff c) Hc). apply IH, Hd.
Qed.
Lemma valacc_shift ds : forall acc, valacc ds acc = acc * 10 ^ Z.of_nat (length ds) + val ds.
Proof.
  unfold val. induction ds as [|c ds IH]; intros acc; [cbn; lia|]. cbn [valacc fold_left length]. fold (valacc ds (acc * 10 + (c - 48))). fold (valacc ds (0 * 10 + (c - 48))).
  rewrite (IH (acc * 10 + (c - 48))), (IH (0 * 10 + (c - 48))). rewrite Nat2Z.inj_succ, Z.pow_succ_r by lia. lia.
Qed.
Lemma val_app a b : val (a ++ b) = val a * 10 ^ Z.of_nat (length b) + val b.
Proof. unfold val at 1. unfold valacc. rewrite fold_left_app. fold (valacc a 0). fold (valacc b (valacc a 0)). rewrite valacc_shift. reflexivity. Qed.
Lemma val_range ds : Forall digitc ds -> 0 <= val ds < 10 ^ Z.of_nat (length ds).
Proof.
  induction ds as [|c ds IH] using rev_ind; intro H; [cbn; lia|]. apply Forall_app in H. destruct H as [Hd Hc]. inversion Hc as [|? ? Hc' _]; subst. unfold digitc in Hc'.
  rewrite val_app, app_length. cbn [length]. change (val [c]) with (0 * 10 + (c - 48)). specialize (IH Hd).
  replace (Z.of_nat (length ds + 1)) with (Z.succ (Z.of_nat (length ds))) by lia. rewrite Z.pow_succ_r by lia. change (10 ^ Z.of_nat 1) with 10. lia.
Qed.
Lemma val_app_div a b : Forall digitc b -> val (a ++ b) / 10 ^ Z.of_nat (length b) = val a.
Proof.
  intro H. pose proof (val_range b H). rewrite val_app, Z.div_add_l, Z.div_small by (try apply Z.pow_nonzero; lia). lia.
Qed.
Lemma val_zeros k : val (repeat 48 k) = 0.
Proof. induction k as [|k IH]; [reflexivity|]. change (repeat 48 (S k)) with ([48] ++ repeat 48 k). rewrite val_app, IH. reflexivity. Qed.
Lemma zeros_digits k : Forall digitc (repeat 48 k).
Proof. induction k; cbn; constructor; [unfold digitc; lia|assumption]. Qed.

Lemma val_udec n : 0 <= n < 10 ^ 45 -> val (udec n) = n.
Proof.
  intro H. pose proof (pdigits_val (udec n) 0 (udec_digits n ltac:(lia))) as P. rewrite (parse_print_nonneg n H) in P. injection P. auto.
Qed.

Definition fracpart (D : nat) (B : bytes) : bytes := firstn D (B ++ repeat 48 (D - length B)).
Lemma fracpart_len D B : length (fracpart D B) = D.
Proof. unfold fracpart. rewrite firstn_length, app_length, repeat_length. lia. Qed.
Lemma fracpart_digits D B : Forall digitc B -> Forall digitc (fracpart D B).
Proof.
  intro H. unfold fracpart. assert (F : Forall digitc (B ++ repeat 48 (D - length B))) by (apply Forall_app; split; [exact H|apply zeros_digits]).
  rewrite Forall_forall in *. intros c Hc. apply F. rewrite <- (firstn_skipn D (B ++ repeat 48 (D - length B))). apply in_or_app. left. exact Hc.
Qed.
Lemma fracpart_val D B : Forall digitc B -> val (fracpart D B) = (val B * 10 ^ Z.of_nat D) / 10 ^ Z.of_nat (length B).
Proof.
  intro H. unfold fracpart. assert (P : forall k, 0 < 10 ^ Z.of_nat k) by (intro k; apply Z.pow_pos_nonneg; lia).
  destruct (Nat.le_gt_cases (length B) D) as [L|L].
  - rewrite firstn_all2 by (rewrite app_length, repeat_length; lia). rewrite val_app, val_zeros, repeat_length, Z.add_0_r.
    replace (Z.of_nat D) with (Z.of_nat (D - length B) + Z.of_nat (length B)) by lia. rewrite Z.pow_add_r by lia. rewrite Z.mul_assoc, Z.div_mul by (pose proof (P (length B)); lia). reflexivity.
  - replace (D - length B)%nat with 0%nat by lia. cbn [repeat]. rewrite app_nil_r.
    assert (Hs : Forall digitc (skipn D B)) by (rewrite <- (firstn_skipn D B) in H; apply Forall_app in H; apply H).
    rewrite <- (val_app_div (firstn D B) (skipn D B) Hs), firstn_skipn.
    replace (Z.of_nat (length B)) with (Z.of_nat (length (skipn D B)) + Z.of_nat D) by (rewrite skipn_length; lia).
    rewrite Z.pow_add_r, Z.div_mul_cancel_r by (try apply Z.pow_nonzero; lia). reflexivity.
Qed.

Section Lit.
Variable places : nat.
Hypothesis Hp : (1 <= places <= 16)%nat.
Notation M := (mult places).

Definition sign_ok (sg A : bytes) : Prop := sg = [] \/ sg = [45] \/ (sg = [43] /\ A <> []).
Definition negsg (sg : bytes) : bool := beq sg [45].
Lemma swrap0 : swrap 0 = 0. Proof. reflexivity. Qed.

(* the value of the literal sg A . B truncated to D places, as an integer number of 10^-D units *)
Definition litval (A B : bytes) : Z := val A * M + (val B * M) / 10 ^ Z.of_nat (length B).
Definition signed (sg : bytes) (x : Z) : Z := if negsg sg then - x else x.
Lemma litval_fracpart A B : Forall digitc B -> litval A B = val A * M + val (fracpart places B).
Proof. intro HB. unfold litval. rewrite fracpart_val by exact HB. reflexivity. Qed.
Lemma fits_signed sg x : 0 <= x -> fits x -> fits (signed sg x).
Proof. clear Hp. unfold signed, fits. destruct (negsg sg); lia. Qed.

Lemma signed_abs sg v : negsg sg = (v <? 0) -> signed sg (Z.abs v) = v.
Proof. clear Hp. unfold signed. intros ->. destruct (Z.ltb_spec v 0); lia. Qed.

Lemma sg_plain sg A : sign_ok sg A -> Forall digitc A -> plain (sg ++ A).
Proof. intros H HA. apply Forall_app. split; [|apply digits_plain; exact HA]. destruct H as [->|[->|[-> _]]]; repeat constructor; unfold plainc; lia. Qed.

Lemma parse_signed_lit sg A : Forall digitc A -> A <> [] -> sign_ok sg A -> parse_signed (sg ++ A) = Some (signed sg (val A)).
Proof.
  intros HA Hne Hsg. pose proof (pdigits_val A 0 HA) as PD. destruct A as [|d A']; [congruence|].
  assert (Hd : 48 <= d <= 57) by (inversion HA; assumption).
  destruct Hsg as [->|[->|[-> _]]]; unfold parse_signed; cbn [app].
  - fold (parse_signed (d :: A')). rewrite parse_signed_unsigned, PD by exact Hd. reflexivity.
  - rewrite Z.eqb_refl, PD. reflexivity.
  - change (43 =? 45) with false. change (43 =? 43) with true. cbv iota. rewrite PD. reflexivity.
Qed.

Definition eqw (wide : bool) (x y : Z) : Prop := if wide then x = y else exists k, x = y + k * W.
Lemma eqw_refl wide x : eqw wide x x.
Proof. destruct wide; [reflexivity|exists 0; lia]. Qed.
Lemma eqw_wr wide x y : eqw wide x y -> eqw wide (wr wide x) y.
Proof. destruct wide; cbn [eqw wr]; [auto|]. intros [k ->]. destruct (swrap_eqm (y + k * W)) as [k' ->]. exists (k + k'). lia. Qed.
Lemma eqw_add wide x y x' y' : eqw wide x y -> eqw wide x' y' -> eqw wide (x + x') (y + y').
Proof. destruct wide; cbn [eqw]; [lia|]. intros [k ->] [k' ->]. exists (k + k'). lia. Qed.
Lemma eqw_mul wide x y m : eqw wide x y -> eqw wide (x * m) (y * m).
Proof. destruct wide; cbn [eqw]; [intros ->; reflexivity|]. intros [k ->]. exists (k * m). lia. Qed.
Lemma wr_small wide x : (wide = false -> fits x) -> wr wide x = x.
Proof. destruct wide; [reflexivity|]. intro H. apply swrap_small, H, eq_refl. Qed.
Lemma fin_lit wide sg x T : eqw wide (wr wide x) T -> (wide = false -> fits (signed sg T)) ->
  fin wide (negsg sg) (wr wide x) = if wide then clamp128 (signed sg T) else signed sg T.
Proof.
  unfold fin, signed. destruct wide; cbn [eqw wr]; [intros -> _; reflexivity|]. intros [k E] HF. specialize (HF eq_refl). destruct (negsg sg).
  - apply swrap_unique; [exact HF|]. exists (- k). lia.
  - rewrite <- (swrap_small _ (swrap_fits x)). apply swrap_unique; [exact HF|]. exists k. exact E.
Qed.

(* the integer part, as the switch on parts[0] computes it: "" and "-" and "-0" without parsing, otherwise ParseInt (SetString for
   f128), negated when negative or written with '-', then times the multiplier; the sign is kept aside and applied at the end *)
Lemma r0_lit (wide : bool) sg A : Forall digitc A -> sign_ok sg A -> (wide = false -> fits (signed sg (val A))) ->
  r0_of places wide (sg ++ A) = Some (negsg sg, wr wide (wr wide (val A) * M)).
Proof.
  intros HA Hsg Hfit. pose proof (val_range A HA) as VR. destruct A as [|d A'].
  - destruct Hsg as [->|[->|[_ N]]]; [| |congruence]; destruct wide; reflexivity.
  - assert (Hd : 48 <= d <= 57) by (inversion HA; assumption). set (A := d :: A') in *.
    pose proof (pnum_ok wide _ _ (parse_signed_lit sg A HA ltac:(discriminate) Hsg) Hfit) as PN. unfold r0_of.
    destruct Hsg as [->|[->|[-> _]]]; unfold signed in *; cbn [app negsg beq andb] in *.
    + subst A. rewrite (beq_head_false d A' 45 []), (beq_head_false d A' 45 [48]), PN, (proj2 (Z.ltb_ge _ 0)) by lia.
      cbn [orb head_is]. rewrite (proj2 (Z.eqb_neq d 45)), (wr_small wide (val _) Hfit) by lia. reflexivity.
    + change (45 =? 45) with true in *. cbn [andb] in *. replace (beq A []) with false by reflexivity. cbn [orb].
      destruct (beq A [48]) eqn:B2.
      * subst A. cbn in B2. destruct (Z.eqb_spec d 48) as [->|]; [|discriminate]. destruct A'; [|discriminate]. destruct wide; reflexivity.
      * rewrite PN. cbn [head_is]. rewrite Z.eqb_refl, orb_true_r, Z.opp_involutive. reflexivity.
    + change (43 =? 45) with false in *. cbn [andb orb] in *. rewrite PN, (proj2 (Z.ltb_ge _ 0)) by lia. cbn [orb head_is].
      change (43 =? 45) with false. rewrite (wr_small wide (val A) Hfit). reflexivity.
Qed.

(* the fraction: "1" and the digits, padded with zeros and cut to D+1 characters, parsed, less the multiplier *)
Lemma r1_lit (wide : bool) value B : Forall digitc B ->
  r1_of places wide value (Some B) = Some (wr wide (value + wr wide (val (fracpart places B)))).
Proof.
  intro HB. pose proof (mult_range places Hp) as HM. unfold r1_of. cbv zeta. cbn [length]. replace (S places - S (length B))%nat with (places - length B)%nat by lia.
  change ((49 :: B) ++ repeat 48 (places - length B)) with (49 :: (B ++ repeat 48 (places - length B))). cbn [firstn]. fold (fracpart places B).
  pose proof (fracpart_digits places B HB) as FD. pose proof (val_range _ FD) as VR. rewrite fracpart_len in VR.
  assert (V : val (49 :: fracpart places B) = M + val (fracpart places B)) by (change (49 :: fracpart places B) with ([49] ++ fracpart places B); rewrite val_app, fracpart_len; unfold mult; change (val [49]) with 1; lia).
  rewrite (pnum_ok wide _ (M + val (fracpart places B))).
  - replace (M + val (fracpart places B) - M) with (val (fracpart places B)) by lia. reflexivity.
  - rewrite <- V. apply (parse_signed_lit [] (49 :: _)); [constructor; [unfold digitc; lia|exact FD]|discriminate|left; reflexivity].
  - intros _. unfold fits. unfold mult in *. lia.
Qed.

(* the hypothesis is on the signed value, so the int64 minimum is covered *)
Theorem literal_with_fraction (wide : bool) sg A B : Forall digitc A -> Forall digitc B -> sign_ok sg A ->
  (wide = false -> fits (signed sg (litval A B))) ->
  fx_from_string places wide (sg ++ A ++ 46 :: B) = POk (if wide then clamp128 (signed sg (litval A B)) else signed sg (litval A B)).
Proof.
  intros HA HB Hsg Hfit. pose proof (mult_range places Hp) as HM. pose proof (val_range A HA) as VA.
  pose proof (val_range _ (fracpart_digits places B HB)) as VF. rewrite fracpart_len in VF. fold M in VF.
  rewrite (litval_fracpart A B HB) in *.
  rewrite app_assoc, from_string_dot by (try apply sg_plain; try apply digits_plain; assumption).
  unfold fx_core. rewrite r0_lit, r1_lit by (try assumption; intro Hw; specialize (Hfit Hw); unfold signed, fits in *; destruct (negsg sg); nia).
  f_equal. apply fin_lit; [|exact Hfit]. apply eqw_wr, eqw_add; [apply eqw_wr, eqw_mul|]; apply eqw_wr, eqw_refl.
Qed.
Theorem literal_integer (wide : bool) sg A : Forall digitc A -> A <> [] -> sign_ok sg A ->
  (wide = false -> fits (signed sg (val A * M))) ->
  fx_from_string places wide (sg ++ A) = POk (if wide then clamp128 (signed sg (val A * M)) else signed sg (val A * M)).
Proof.
  intros HA Hne Hsg Hfit. pose proof (mult_range places Hp) as HM. pose proof (val_range A HA) as VA.
  rewrite from_string_nodot; [|intro E; apply app_eq_nil in E; destruct E; contradiction|apply sg_plain; assumption].
  unfold fx_core. rewrite r0_lit by (try assumption; intro Hw; specialize (Hfit Hw); unfold signed, fits in *; destruct (negsg sg); nia).
  cbn [r1_of]. f_equal. apply fin_lit; [|exact Hfit]. apply eqw_wr, eqw_mul, eqw_wr, eqw_refl.
Qed.
End Lit.
