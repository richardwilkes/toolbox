(* C04 — the round trip: FromString (String v) = v for every value and every configuration (1..16 places), f64 and f128.
   String prints v as the literal  sign, digits of |v quot M|, and - unless it is zero - a dot and the digits of |v rem M| without
   trailing zeros; the literal theorems of ProofsLit.v read that back. *)
From Coq Require Import ZArith List Bool Lia.
From Verif Require Import common.Word64 C03.Model C03.ProofsZ C03.Proofs C04.Model C04.Proofs C04.ProofsRT C04.ProofsLit.
Import ListNotations.
Open Scope Z_scope.

Section RT.
Variable places : nat.
Hypothesis Hp : (1 <= places <= 16)%nat.
Notation M := (mult places).

Definition frac_body (F : Z) : bytes := match udec (F + M) with _ :: t => rev (strip_trailing_zeros_rev (rev t)) | [] => [] end.
Lemma frac_body_spec F : 0 < F < M -> Forall digitc (frac_body F) /\ val (fracpart places (frac_body F)) = F.
Proof.
  intros HF. pose proof (mult_range places Hp) as HM. assert (R : 0 <= F + M < 10 ^ 45) by (pose proof pow45_big; lia).
  pose proof (val_udec _ R) as V. pose proof (udec_digits (F + M) ltac:(lia)) as D. unfold frac_body.
  destruct (digits_shape places 45 (F + M) [] ltac:(lia)) as (t & E & L); [unfold mult in *; lia|]. rewrite app_nil_r in E.
  unfold udec in *. rewrite E in *. destruct (body_shape t) as [k Ek]. set (body := rev (strip_trailing_zeros_rev (rev t))) in *.
  assert (Lb : (length body + k = places)%nat) by (rewrite <- L, Ek at 1; rewrite app_length, repeat_length; reflexivity).
  split.
  - apply Forall_inv_tail in D. rewrite Ek in D. apply Forall_app in D. apply D.
  - unfold fracpart. replace (places - length body)%nat with k by lia. rewrite <- Ek, firstn_all2 by lia.
    change (49 :: t) with ([49] ++ t) in V. rewrite val_app, L in V. unfold mult in *. change (val [49]) with 1 in V. lia.
Qed.

Lemma sdec_abs n : sdec n = (if n <? 0 then [45] else []) ++ udec (Z.abs n).
Proof. unfold sdec. destruct (Z.ltb_spec n 0); [rewrite Z.abs_neq|rewrite Z.abs_eq]; (lia || reflexivity). Qed.

(* the sign is printed once: by sdec when the integer part has one, by String itself when the integer part is zero *)
Lemma fx_string_parts v :
  fx_string places v = (if v <? 0 then [45] else []) ++ udec (Z.abs (Z.quot v M)) ++
                       (if Z.rem v M =? 0 then [] else 46 :: frac_body (Z.abs (Z.rem v M))).
Proof.
  pose proof (mult_range places Hp) as HM. pose proof (Z.quot_rem' v M) as QR.
  destruct (quot_rem_signs v M ltac:(lia)) as [SP SN]. unfold fx_string, frac_body. rewrite sdec_abs.
  generalize (udec (Z.abs (Z.rem v M) + M)) (udec (Z.abs (Z.quot v M))). intros fStr A.
  assert (S : (Z.quot v M <? 0) = negb (Z.quot v M =? 0) && (v <? 0)).
  { destruct (Z.eqb_spec (Z.quot v M) 0) as [->|], (Z.ltb_spec (Z.quot v M) 0), (Z.ltb_spec v 0); try reflexivity; lia. }
  rewrite S. destruct (Z.eqb_spec (Z.rem v M) 0) as [F0|F0].
  - rewrite app_nil_r. destruct (Z.eqb_spec (Z.quot v M) 0) as [I0|]; [|reflexivity].
    replace (v <? 0) with false by (symmetry; apply Z.ltb_ge; nia). reflexivity.
  - destruct (Z.quot v M =? 0), (v <? 0); reflexivity.
Qed.

(* pre: the '+' of the *WithSign forms *)
Definition pre_ok (pre : bytes) (v : Z) : Prop := pre = [] \/ (pre = [43] /\ 0 <= v).

Theorem roundtrip_gen wide pre v : pre_ok pre v -> fitsw wide v -> fx_from_string places wide (pre ++ fx_string places v) = POk v.
Proof.
  intros Hpre Hv. pose proof (mult_range places Hp) as HM. rewrite fx_string_parts.
  pose proof (abs_quot_rem v M ltac:(lia)) as T. pose proof (Z.rem_bound_abs v M ltac:(lia)) as RM.
  set (I := Z.quot v M) in *. set (Fr := Z.rem v M) in *. set (A := udec (Z.abs I)).
  set (sg := pre ++ (if v <? 0 then [45] else [])). assert (HA : Forall digitc A) by (apply udec_digits; lia). pose proof (udec_ne (Z.abs I)) as NA. fold A in NA.
  assert (Hsg : sign_ok sg A /\ negsg sg = (v <? 0)).
  { unfold sg. destruct Hpre as [->|[-> P]]; [destruct (v <? 0); (split; [|reflexivity]); [right; left|left]; reflexivity|].
    rewrite (proj2 (Z.ltb_ge v 0) P). split; [right; right; auto|reflexivity]. }
  destruct Hsg as [Hsg Hneg].
  assert (VA : val A = Z.abs I).
  { apply val_udec. pose proof pow45_big. pose proof (quot_abs_le v M ltac:(lia)). fold I in H0. destruct wide; unfold fitsw, fits in Hv; lia. }
  assert (S : forall T, T = Z.abs v -> (wide = false -> fits (signed sg T)) /\ (if wide then clamp128 (signed sg T) else signed sg T) = v).
  { intros ? ->. rewrite (signed_abs sg v Hneg). split; [intros ->; exact Hv|]. destruct wide; [apply clamp_id, Hv|reflexivity]. }
  rewrite app_assoc. fold sg. destruct (Z.eqb_spec Fr 0) as [F0|F0].
  - rewrite app_nil_r. destruct (S (val A * M)) as [S1 S2]; [lia|]. rewrite literal_integer; auto. f_equal. exact S2.
  - destruct (frac_body_spec (Z.abs Fr)) as [HB VB]; [lia|].
    destruct (S (litval places A (frac_body (Z.abs Fr)))) as [S1 S2]; [rewrite litval_fracpart by exact HB; lia|].
    rewrite literal_with_fraction; auto. f_equal. exact S2.
Qed.
Theorem roundtrip wide v : fitsw wide v -> fx_from_string places wide (fx_string places v) = POk v.
Proof. intros H. apply (roundtrip_gen wide [] v); [left; reflexivity|exact H]. Qed.
Theorem roundtrip_with_sign wide v : fitsw wide v -> fx_from_string places wide (fx_string_with_sign places v) = POk v.
Proof.
  intros H. unfold fx_string_with_sign. destruct (Z.leb_spec 0 v); [|apply roundtrip; exact H].
  apply (roundtrip_gen wide [43] v); [right; split; [reflexivity|assumption]|exact H].
Qed.

Lemma string_numeral v : numeral (fx_string places v).
Proof.
  pose proof (mult_range places Hp) as HM. rewrite fx_string_parts. pose proof (Z.rem_bound_abs v M ltac:(lia)).
  exists (if v <? 0 then [45] else []), (udec (Z.abs (Z.quot v M))). eexists. split; [reflexivity|].
  split; [destruct (v <? 0); auto|]. split; [apply udec_digits; lia|]. split; [apply udec_ne|].
  destruct (Z.eqb_spec (Z.rem v M) 0); [left; reflexivity|right]. eexists. split; [reflexivity|]. apply digits_plain, frac_body_spec. lia.
Qed.

Theorem roundtrip_comma wide v : fitsw wide v -> fx_from_string places wide (comma_from_string_num (fx_string places v)) = POk v.
Proof.
  intros H. pose proof (string_numeral v) as N. pose proof (comma_strip _ N) as C. pose proof (numeral_ne _ N) as Ne.
  rewrite from_string_filter by (rewrite C; exact Ne). rewrite C. apply roundtrip, H.
Qed.
Theorem roundtrip_comma_with_sign wide v : fitsw wide v -> 0 <= v -> fx_from_string places wide (43 :: comma_from_string_num (fx_string places v)) = POk v.
Proof.
  intros H Hv. pose proof (comma_strip _ (string_numeral v)) as C.
  rewrite from_string_filter by (cbn [filter]; discriminate). cbn [filter]. change (43 =? 44) with false. cbn [negb]. rewrite C.
  apply (roundtrip_gen wide [43] v); [right; split; [reflexivity|exact Hv]|exact H].
Qed.
End RT.
