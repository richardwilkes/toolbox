(* C04 — rejection: the numeral parsers FromString rests on accept only well-formed numerals, for ALL byte strings *)
From Coq Require Import ZArith List Bool Lia.
From Verif Require Import common.Word64 common.ListFacts C03.Model C04.Model C04.Proofs C04.ProofsRT.
Import ListNotations.
Open Scope Z_scope.

Lemma pdigits_only_digits : forall s acc n, pdigits s acc = Some n -> forall c, In c s -> is_digit c = true.
Proof.
  induction s as [|x s IH]; intros acc n H c Hin; [destruct Hin|].
  cbn [pdigits] in H. destruct (is_digit x) eqn:Ex; [|discriminate].
  destruct Hin as [->|Hin]; [exact Ex|]. eapply IH; eassumption.
Qed.

Lemma pdigits_nonneg : forall s acc n, 0 <= acc -> pdigits s acc = Some n -> acc <= n.
Proof.
  induction s as [|x s IH]; intros acc n Ha H; cbn [pdigits] in H.
  - injection H as <-. lia.
  - destruct (is_digit x) eqn:Ex; [|discriminate]. apply is_digit_iff in Ex. apply IH in H; lia.
Qed.

Lemma parse_signed_shape s v : parse_signed s = Some v ->
  exists body, body <> [] /\ (forall c, In c body -> is_digit c = true) /\
    ((s = 45 :: body /\ v <= 0) \/ (s = 43 :: body /\ 0 <= v) \/ (s = body /\ 0 <= v)).
Proof.
  unfold parse_signed. intro H.
  assert (G : forall neg body, match body with [] => None | _ => match pdigits body 0 with None => None | Some w => Some (if neg : bool then - w else w) end end = Some v ->
    body <> [] /\ (forall c, In c body -> is_digit c = true) /\ (if neg then v <= 0 else 0 <= v)).
  { intros neg body G. destruct body as [|b body]; [discriminate|]. split; [discriminate|].
    destruct (pdigits (b :: body) 0) as [w|] eqn:Ep; [|discriminate]. injection G as <-.
    split; [eapply pdigits_only_digits; exact Ep|]. apply pdigits_nonneg in Ep; [|lia]. destruct neg; lia. }
  destruct s as [|c r].
  - discriminate.
  - destruct (c =? 45) eqn:E45.
    + apply Z.eqb_eq in E45. subst c. apply (G true) in H. destruct H as (H1 & H2 & H3). exists r. split; [exact H1|]. split; [exact H2|]. left. auto.
    + destruct (c =? 43) eqn:E43.
      * apply Z.eqb_eq in E43. subst c. apply (G false) in H. destruct H as (H1 & H2 & H3). exists r. split; [exact H1|]. split; [exact H2|]. right. left. auto.
      * apply (G false (c :: r)) in H. destruct H as (H1 & H2 & H3). exists (c :: r). split; [exact H1|]. split; [exact H2|]. right. right. auto.
Qed.

Lemma parseInt64_shape s v : parseInt64 s = Some v ->
  parse_signed s = Some v /\ - SIGN <= v < SIGN.
Proof.
  unfold parseInt64. destruct (parse_signed s) as [w|]; [|discriminate].
  destruct ((- SIGN <=? w) && (w <? SIGN)) eqn:E; [|discriminate]. intro H. injection H as <-.
  apply andb_prop in E. destruct E as [E1 E2]. apply Z.leb_le in E1. apply Z.ltb_lt in E2. auto.
Qed.

Lemma parse_signed_rejects s c : In c (tl s) -> is_digit c = false -> parse_signed s = None.
Proof.
  intros Hin Hc. destruct (parse_signed s) as [v|] eqn:E; [|reflexivity]. exfalso.
  destruct (parse_signed_shape s v E) as (body & Hne & Hd & [[-> _]|[[-> _]| [-> _]]]); cbn [tl] in Hin.
  - rewrite (Hd c Hin) in Hc. discriminate.
  - rewrite (Hd c Hin) in Hc. discriminate.
  - destruct body as [|b body]; [destruct Hin|]. cbn [tl] in Hin. rewrite (Hd c (or_intror Hin)) in Hc. discriminate.
Qed.
Lemma beq_eq a b : beq a b = true -> a = b.
Proof. apply (list_eqb_spec Z.eqb Z.eqb_eq). Qed.

Lemma pnum_shape wide s v : pnum wide s = Some v -> parse_signed s = Some v.
Proof. destruct wide; [auto|]. intro H. apply parseInt64_shape, H. Qed.
Lemma r0_of_shape places wide p0 x : r0_of places wide p0 = Some x -> p0 = [] \/ p0 = [45] \/ exists w, parse_signed p0 = Some w.
Proof.
  unfold r0_of. intro H. destruct p0 as [|b p0']; [left; reflexivity|]. right.
  destruct (beq (b :: p0') [45] || beq (b :: p0') [45; 48]) eqn:Eb.
  - apply orb_prop in Eb. destruct Eb as [Eb|Eb]; apply beq_eq in Eb; rewrite Eb; [left; reflexivity|right; exists 0; reflexivity].
  - right. destruct (pnum wide (b :: p0')) as [w|] eqn:Ep; [|discriminate]. exists w. exact (pnum_shape _ _ _ Ep).
Qed.
Lemma from_string_accepts_shape places wide str v : fx_from_string places wide str = POk v ->
  let s := filter (fun c => negb (c =? 44)) str in
  str <> [] /\ existsb (fun c => (c =? 69) || (c =? 101)) s = false /\
  let p0 := fst (split_dot s []) in
  (p0 = [] \/ p0 = [45] \/ exists w, parse_signed p0 = Some w) /\
  (forall fr, snd (split_dot s []) = Some fr ->
     exists f, parse_signed (firstn (S places) ((49 :: fr) ++ repeat 48 (S places - length (49 :: fr)))) = Some f).
Proof.
  intro H. assert (Hne : str <> []) by (intros ->; discriminate). rewrite (from_string_core places wide str Hne) in H. cbv zeta in *.
  split; [exact Hne|]. destruct (existsb (fun c => (c =? 69) || (c =? 101)) _); [discriminate|]. split; [reflexivity|].
  unfold fx_core in H. destruct (r0_of places wide _) as [[neg value]|] eqn:R0; [|discriminate]. split; [exact (r0_of_shape _ _ _ _ R0)|].
  intros fr E. rewrite E in H. unfold r1_of in H. cbv zeta in H. destruct (pnum wide _) as [f|] eqn:Ef; [|discriminate]. exists f. exact (pnum_shape _ _ _ Ef).
Qed.
