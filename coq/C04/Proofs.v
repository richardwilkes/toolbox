From Coq Require Import ZArith List Bool Lia.
From Verif Require Import common.Word64 C03.Model C04.Model.
Import ListNotations.
Open Scope Z_scope.

Lemma is_digit_iff c : is_digit c = true <-> 48 <= c <= 57.
Proof. unfold is_digit. rewrite andb_true_iff, !Z.leb_le. reflexivity. Qed.
Lemma is_digit_48 d : 0 <= d < 10 -> is_digit (48 + d) = true.
Proof. intro H. apply is_digit_iff. lia. Qed.
Lemma parse_signed_unsigned d r : 48 <= d <= 57 -> parse_signed (d :: r) = pdigits (d :: r) 0.
Proof.
  intro H. unfold parse_signed. rewrite (proj2 (Z.eqb_neq d 45)), (proj2 (Z.eqb_neq d 43)) by lia. destruct (pdigits (d :: r) 0); reflexivity.
Qed.

Lemma pdigits_digits : forall f n acc a, 0 <= n < 10 ^ Z.of_nat f ->
  exists k, 0 <= k /\ pdigits (digits_aux f n acc) a = pdigits acc (a * 10 ^ k + n).
Proof.
  induction f as [|f IH]; intros n acc a Hn.
  - cbn in Hn. assert (n = 0) by lia. subst. exists 0. split; [lia|]. cbn. f_equal. lia.
  - cbn [digits_aux]. destruct (n <? 10) eqn:E.
    + apply Z.ltb_lt in E. exists 1. split; [lia|]. cbn [pdigits]. rewrite is_digit_48 by lia. f_equal. lia.
    + apply Z.ltb_ge in E.
      assert (Hd : 0 <= n / 10 < 10 ^ Z.of_nat f).
      { rewrite Nat2Z.inj_succ, Z.pow_succ_r in Hn by lia. split; [apply Z.div_pos; lia|]. apply Z.div_lt_upper_bound; lia. }
      destruct (IH (n / 10) ((48 + n mod 10) :: acc) a Hd) as (k & Hk & R).
      exists (k + 1). split; [lia|]. rewrite R. cbn [pdigits].
      rewrite is_digit_48 by (apply Z.mod_pos_bound; lia). f_equal.
      rewrite Z.pow_add_r by lia. pose proof (Z.div_mod n 10 ltac:(lia)). lia.
Qed.
(* 45 digits hold every 128-bit value: 2^128 <= 8^45, with no evaluation of 10^45 *)
Lemma pow45_big : P128 <= 10 ^ 45.
Proof.
  change P128 with (2 ^ 128). apply Z.le_trans with (8 ^ 45); [|apply Z.pow_le_mono_l; lia].
  change 8 with (2 ^ 3). rewrite <- Z.pow_mul_r by lia. apply Z.pow_le_mono_r; lia.
Qed.
Theorem parse_print_nonneg n : 0 <= n < 10 ^ 45 -> pdigits (udec n) 0 = Some n.
Proof. intros H. unfold udec. destruct (pdigits_digits 45 n [] 0 H) as (k & _ & R). rewrite R. cbn [pdigits]. f_equal. Qed.

Lemma digits_aux_digits f : forall n acc, 0 <= n -> Forall (fun c => 48 <= c <= 57) acc -> Forall (fun c => 48 <= c <= 57) (digits_aux f n acc).
Proof.
  induction f as [|f IH]; intros n acc Hn Ha; cbn [digits_aux]; [exact Ha|]. destruct (Z.ltb_spec n 10).
  - constructor; [lia|exact Ha].
  - apply IH; [apply Z.div_pos; lia|]. constructor; [|exact Ha]. pose proof (Z.mod_pos_bound n 10 ltac:(lia)). lia.
Qed.
Lemma digits_aux_ne f : forall n acc, acc <> [] \/ f <> O -> digits_aux f n acc <> [].
Proof.
  induction f as [|f IH]; intros n acc H; cbn [digits_aux]; [destruct H; congruence|]. destruct (n <? 10); [discriminate|]. apply IH. left. discriminate.
Qed.
Lemma udec_digits n : 0 <= n -> Forall (fun c => 48 <= c <= 57) (udec n).
Proof. intro H. apply digits_aux_digits; [exact H|constructor]. Qed.
Lemma udec_ne n : udec n <> [].
Proof. apply digits_aux_ne. right. discriminate. Qed.
Lemma udec_head n : 0 <= n -> exists c r, udec n = c :: r /\ 48 <= c <= 57.
Proof.
  intro H. pose proof (udec_digits n H) as D. pose proof (udec_ne n) as N. destruct (udec n) as [|c r]; [congruence|].
  exists c, r. split; [reflexivity|exact (Forall_inv D)].
Qed.

Theorem parse_print_signed n : - 10 ^ 45 < n < 10 ^ 45 -> parse_signed (sdec n) = Some n.
Proof.
  intro H. unfold sdec. destruct (Z.ltb_spec n 0) as [Hn|Hn].
  - unfold parse_signed. rewrite Z.eqb_refl. assert (P := parse_print_nonneg (- n) ltac:(lia)).
    destruct (udec_head (- n) ltac:(lia)) as (c & r & E & _). rewrite E in *. rewrite P. f_equal. lia.
  - assert (P := parse_print_nonneg n ltac:(lia)). destruct (udec_head n Hn) as (c & r & E & Hc). rewrite E in *.
    rewrite parse_signed_unsigned by exact Hc. exact P.
Qed.

Lemma group3_strip : forall n s, (forall c, In c s -> c <> 44) -> length s = (3 * n)%nat -> filter (fun c => negb (c =? 44)) (group3 s n) = s.
Proof.
  induction n as [|n IH]; intros s Hs Hl.
  - destruct s; [reflexivity|cbn in Hl; lia].
  - destruct s as [|a [|b [|c r]]]; try (cbn in Hl; lia). cbn [group3 filter]. change (44 =? 44) with true. cbn [negb].
    rewrite (proj2 (Z.eqb_neq a 44)), (proj2 (Z.eqb_neq b 44)), (proj2 (Z.eqb_neq c 44)) by (apply Hs; cbn; auto). cbn [negb].
    do 3 f_equal. apply IH; [intros x Hx; apply Hs; cbn; auto | cbn in Hl; lia].
Qed.
Lemma group3_head n s g gs : group3 s n = g :: gs -> g = 44.
Proof. destruct n as [|n]; destruct s as [|a [|b [|c r]]]; cbn; congruence. Qed.
Lemma filter_id (s : bytes) : (forall c, In c s -> c <> 44) -> filter (fun c => negb (c =? 44)) s = s.
Proof. induction s as [|a s IH]; intro H; [reflexivity|]. cbn [filter]. rewrite (proj2 (Z.eqb_neq a 44)) by (apply H; left; reflexivity). cbn [negb]. f_equal. apply IH. intros; apply H; right; assumption. Qed.
Theorem comma_int_strip s : (forall c, In c s -> c <> 44) -> filter (fun c => negb (c =? 44)) (comma_int s) = s.
Proof.
  intro Hs. unfold comma_int.
  set (first := (length s mod 3)%nat). set (h := firstn first s). set (t := skipn first s).
  assert (Hsplit : h ++ t = s) by apply firstn_skipn.
  assert (Hlen : length t = (3 * (length t / 3))%nat).
  { unfold t. rewrite skipn_length. unfold first. pose proof (Nat.div_mod (length s) 3 ltac:(lia)) as D.
    assert (E : (length s - length s mod 3 = 3 * (length s / 3))%nat) by lia. rewrite E. rewrite Nat.mul_comm, Nat.div_mul by lia. lia. }
  assert (Hrest : forall c, In c t -> c <> 44) by (intros c Hc; apply Hs; rewrite <- Hsplit; apply in_or_app; right; exact Hc).
  assert (Hhead : forall c, In c h -> c <> 44) by (intros c Hc; apply Hs; rewrite <- Hsplit; apply in_or_app; left; exact Hc).
  pose proof (group3_strip _ _ Hrest Hlen) as G.
  transitivity (h ++ t); [|exact Hsplit]. clearbody h t. clear Hsplit Hs first.
  destruct h as [|x hs].
  - cbn [app]. destruct (group3 t (length t / 3)) as [|g gs] eqn:Eg; [cbn in G; exact G|].
    assert (g = 44) by (eapply group3_head; exact Eg).
    subst g. cbn [filter] in G. change (44 =? 44) with true in G. cbn [negb] in G. exact G.
  - rewrite filter_app, G, (filter_id _ Hhead). reflexivity.
Qed.

Theorem unquote_quote (s : bytes) : unquote (34 :: s ++ [34]) = s.
Proof.
  unfold unquote. destruct (s ++ [34]) as [|c r] eqn:E; [destruct s; discriminate|].
  rewrite Z.eqb_refl. rewrite <- E. rewrite rev_app_distr. cbn [rev app]. rewrite Z.eqb_refl. apply rev_involutive.
Qed.
