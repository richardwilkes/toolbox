(* C04 — property theorems only (byte-level model of the fixed-point text functions). *)
From Coq Require Import ZArith List Bool Lia.
From Verif Require Import common.Word64 C03.Model C03.Proofs C04.Model C04.Proofs C04.ProofsRT C04.ProofsLit C04.ProofsRoundTrip C04.ProofsRej.
Import ListNotations.
Open Scope Z_scope.

(* decimal printing and parsing are inverse for every integer that can occur (|n| < 10^45 > 2^128):
   this is strconv.FormatInt/ParseInt and big.Int String/SetString as String() and FromString use them *)
Theorem C04_decimal_digits_roundtrip : forall n, 0 <= n < 10 ^ 45 -> pdigits (udec n) 0 = Some n.
Proof. exact parse_print_nonneg. Qed.
Print Assumptions C04_decimal_digits_roundtrip.
Theorem C04_signed_decimal_roundtrip : forall n, - 10 ^ 45 < n < 10 ^ 45 -> parse_signed (sdec n) = Some n.
Proof. exact parse_print_signed. Qed.
Print Assumptions C04_signed_decimal_roundtrip.

Theorem C04_comma_only_adds_separators : forall s : bytes, (forall c, In c s -> c <> 44) ->
  filter (fun c => negb (c =? 44)) (comma_int s) = s.
Proof. exact comma_int_strip. Qed.
Print Assumptions C04_comma_only_adds_separators.

Theorem C04_unquote_quoted : forall s : bytes, unquote (34 :: s ++ [34]) = s.
Proof. exact unquote_quote. Qed.
Print Assumptions C04_unquote_quoted.

(* the round trip, for every value and every configuration (1..16 decimal places), f64 (wide = false: int64 with wrap-around,
   ParseInt range errors) and f128 (wide = true: big.Int parsing, saturation): FromString applied to String, StringWithSign, Comma and
   CommaWithSign of v returns exactly v. fitsw = the value is an int64 / an Int128. UnmarshalText/JSON/YAML call FromString on the
   (unquoted) text; Unquote is covered by C04_unquote_quoted. *)
Theorem C04_string_roundtrip : forall places, (1 <= places <= 16)%nat -> forall wide v, fitsw wide v ->
  fx_from_string places wide (fx_string places v) = POk v.
Proof. exact roundtrip. Qed.
Print Assumptions C04_string_roundtrip.
Theorem C04_string_with_sign_roundtrip : forall places, (1 <= places <= 16)%nat -> forall wide v, fitsw wide v ->
  fx_from_string places wide (fx_string_with_sign places v) = POk v.
Proof. exact roundtrip_with_sign. Qed.
Print Assumptions C04_string_with_sign_roundtrip.
Theorem C04_comma_roundtrip : forall places, (1 <= places <= 16)%nat -> forall wide v, fitsw wide v ->
  fx_from_string places wide (comma_from_string_num (fx_string places v)) = POk v /\
  (0 <= v -> fx_from_string places wide (43 :: comma_from_string_num (fx_string places v)) = POk v).
Proof. intros places Hp wide v H. split; [exact (roundtrip_comma places Hp wide v H)|exact (roundtrip_comma_with_sign places Hp wide v H)]. Qed.
Print Assumptions C04_comma_roundtrip.
Theorem C04_comma_of_string_only_adds_separators : forall places, (1 <= places <= 16)%nat -> forall v,
  filter (fun c => negb (c =? 44)) (comma_from_string_num (fx_string places v)) = fx_string places v.
Proof. intros places Hp v. apply comma_strip. apply string_numeral. exact Hp. Qed.
Print Assumptions C04_comma_of_string_only_adds_separators.
(* quoted JSON text: Unquote then FromString *)
Theorem C04_quoted_roundtrip : forall places, (1 <= places <= 16)%nat -> forall wide v, fitsw wide v ->
  fx_from_string places wide (unquote (34 :: fx_string places v ++ [34])) = POk v.
Proof. intros places Hp wide v H. rewrite unquote_quote. apply roundtrip; assumption. Qed.
Print Assumptions C04_quoted_roundtrip.
(* plain decimal literals: optional sign (a '+' needs an integer part), optional integer part A, optional fraction B of any
   length (digit strings; val = the number they denote). FromString returns the number truncated toward zero to D places:
   sign * (val A * 10^D + floor (val B * 10^D / 10^|B|)) - saturated for f128, and for f64 whenever that value is an int64. *)
Theorem C04_literal_truncates_toward_zero : forall places, (1 <= places <= 16)%nat -> forall (wide : bool) sg A B,
  Forall digitc A -> Forall digitc B -> sign_ok sg A -> (wide = false -> fits (litval places A B)) ->
  fx_from_string places wide (sg ++ A ++ 46 :: B) = POk (if wide then clamp128 (signed sg (litval places A B)) else signed sg (litval places A B)).
Proof.
  intros places Hp wide sg A B HA HB Hsg Hfit. apply literal_with_fraction; auto. intro Hw. apply fits_signed; [|auto].
  rewrite litval_fracpart by exact HB. pose proof (val_range A HA). pose proof (val_range _ (fracpart_digits places B HB)). unfold mult. nia.
Qed.
Print Assumptions C04_literal_truncates_toward_zero.
Theorem C04_integer_literal : forall places, (1 <= places <= 16)%nat -> forall (wide : bool) sg A,
  Forall digitc A -> A <> [] -> sign_ok sg A -> (wide = false -> fits (val A * mult places)) ->
  fx_from_string places wide (sg ++ A) = POk (if wide then clamp128 (signed sg (val A * mult places)) else signed sg (val A * mult places)).
Proof.
  intros places Hp wide sg A HA Hne Hsg Hfit. apply literal_integer; auto. intro Hw. apply fits_signed; [|auto].
  pose proof (val_range A HA). unfold mult. nia.
Qed.
Print Assumptions C04_integer_literal.
(* non-vacuity: -.129 in D2 is -0.12, 7.5 in D1 is 7.5, +12.3456 in D2 is 12.34 *)
Example C04_ex_literals :
  fx_from_string 2 false ([45] ++ [] ++ 46 :: [49; 50; 57]) = POk (-12) /\ fx_from_string 1 true ([] ++ [55] ++ 46 :: [53]) = POk 75 /\
  fx_from_string 2 false ([43] ++ [49; 50] ++ 46 :: [51; 52; 53; 54]) = POk 1234.
Proof. repeat split; reflexivity. Qed.

(* non-vacuity: the extreme values meet fitsw *)
Example C04_ex_fitsw : fitsw false (- SIGN) /\ fitsw false (SIGN - 1) /\ fitsw true (- P127) /\ fitsw true (P127 - 1).
Proof. unfold fitsw, fits. repeat split; lia. Qed.

(* rejection, for ALL byte strings: the numeral parsers FromString rests on (strconv.ParseInt base 10 / big.Int SetString) accept
   exactly an optional single sign followed by a non-empty run of decimal digits - never an empty numeral, never a byte outside
   0-9 after the first position -, a negative value only under '-', and for int64 only values inside the int64 range *)
Theorem C04_numeral_accepted_only_if_well_formed : forall s v, parse_signed s = Some v ->
  exists body, body <> [] /\ (forall c, In c body -> is_digit c = true) /\
    ((s = 45 :: body /\ v <= 0) \/ (s = 43 :: body /\ 0 <= v) \/ (s = body /\ 0 <= v)).
Proof. exact parse_signed_shape. Qed.
Print Assumptions C04_numeral_accepted_only_if_well_formed.
Theorem C04_numeral_with_stray_byte_rejected : forall s c, In c (tl s) -> is_digit c = false -> parse_signed s = None.
Proof. exact parse_signed_rejects. Qed.
Print Assumptions C04_numeral_with_stray_byte_rejected.
Theorem C04_int64_numeral_in_range : forall s v, parseInt64 s = Some v -> parse_signed s = Some v /\ - SIGN <= v < SIGN.
Proof. exact parseInt64_shape. Qed.
Print Assumptions C04_int64_numeral_in_range.
(* the whole function, every byte string: whatever FromString accepts has (thousands separators removed, no E/e) before its
   first '.' nothing, a lone '-' or a well-formed numeral, and the first D places of its fraction are decimal digits (the model,
   like the code, ignores the bytes of a fraction beyond D places) - anything else takes the error path *)
Theorem C04_from_string_accepts_only_numerals : forall places wide str v, fx_from_string places wide str = POk v ->
  let s := filter (fun c => negb (c =? 44)) str in
  str <> [] /\ existsb (fun c => (c =? 69) || (c =? 101)) s = false /\
  let p0 := fst (split_dot s []) in
  (p0 = [] \/ p0 = [45] \/ exists w, parse_signed p0 = Some w) /\
  (forall fr, snd (split_dot s []) = Some fr ->
     exists f, parse_signed (firstn (S places) ((49 :: fr) ++ repeat 48 (S places - length (49 :: fr)))) = Some f).
Proof. exact from_string_accepts_shape. Qed.
Print Assumptions C04_from_string_accepts_only_numerals.
Example C04_ex_rejects : parse_signed [49; 50; 120] = None /\ parse_signed [45] = None /\ parse_signed [] = None /\
  parse_signed [45; 49; 50] = Some (-12) /\ parseInt64 [57;50;50;51;51;55;50;48;51;54;56;53;52;55;55;53;56;48;56] = None /\
  fx_from_string 2 false [49; 120; 46; 53] = PErr /\ fx_from_string 2 true [49; 46; 120] = PErr.
Proof. repeat split; vm_compute; reflexivity. Qed.

(* regression examples: canonical text, the sign of -00.5, the int64 minimum, saturation of f128 *)
Example C04_ex_string : fx_string 2 (-5) = [45; 48; 46; 48; 53] /\ fx_string 2 1230 = [49; 50; 46; 51] /\ fx_string 3 (-7000) = [45; 55].
Proof. repeat split. Qed.
Example C04_ex_sign_kept : fx_from_string 1 false [45; 48; 48; 46; 53] = POk (-5) /\ fx_from_string 1 true [45; 48; 48; 46; 53] = POk (-5).
Proof. split; reflexivity. Qed.
Example C04_ex_min_roundtrip : fx_from_string 4 false (fx_string 4 (- SIGN)) = POk (- SIGN).
Proof. vm_compute. reflexivity. Qed.
Example C04_ex_comma : comma_from_string_num [45; 49; 50; 51; 52; 53; 54; 55; 46; 53] = [45; 49; 44; 50; 51; 52; 44; 53; 54; 55; 46; 53].
Proof. reflexivity. Qed.
