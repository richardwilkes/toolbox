(* C05 — soundness of the validator: for rectilinear polygons with integer vertices membership is constant on every unit cell,
   and cells beyond the joint bounding box behave like the bordering ones; so agreement on the finitely many cell centres that
   [check_cells] inspects is agreement at every rational point of the plane. *)
From Coq Require Import ZArith List Bool Lia.
From Verif Require Import C05.Spec.
Import ListNotations.
Open Scope Z_scope.

Lemma le_div y b d : 0 < d -> (y * d <=? b) = (y <=? b / d).
Proof.
  intro Hd. destruct (Z.leb_spec (y * d) b) as [H|H]; destruct (Z.leb_spec y (b / d)) as [G|G]; try reflexivity; exfalso.
  - assert (y <= b / d) by (apply Z.div_le_lower_bound; lia). lia.
  - pose proof (Z.mul_div_le b d Hd). pose proof (Z.mod_pos_bound b d Hd). pose proof (Z.div_mod b d ltac:(lia)). nia.
Qed.
Lemma lt_div y b d : 0 < d -> (b <? y * d) = (b / d <? y).
Proof. intro Hd. rewrite !Z.ltb_antisym, le_div by exact Hd. reflexivity. Qed.
Lemma ltb_scaled a c w : (0 < w -> ((a - c) * w <? 0) = (a <? c)) /\ (w < 0 -> (0 <? (a - c) * w) = (a <? c)).
Proof.
  split; intro; [destruct (Z.ltb_spec ((a - c) * w) 0) | destruct (Z.ltb_spec 0 ((a - c) * w))];
    destruct (Z.ltb_spec a c); try reflexivity; nia.
Qed.
Lemma centre_div i : (2 * i + 1) / 2 = i.
Proof. symmetry. apply (Z.div_unique _ 2 _ 1); lia. Qed.

Definition crosses_cell (i j : Z) (e : pt * pt) : bool :=
  let '((x1, y1), (x2, y2)) := e in
  (x1 =? x2) && (((y1 <=? j) && (j <? y2)) || ((y2 <=? j) && (j <? y1))) && (i <? x1).
Lemma crosses_rect p e : 0 < qd p -> rect_edge e = true -> crosses p (fst e) (snd e) = crosses_cell (qa p / qd p) (qb p / qd p) e.
Proof.
  intros Hd Hr. destruct e as [[x1 y1] [x2 y2]]. destruct p as [a b d]. cbn [qa qb qd fst snd] in *. unfold rect_edge in Hr. cbn [fst snd] in Hr.
  unfold crosses, crosses_cell. cbn [qa qb qd]. rewrite (le_div y1 b d), (le_div y2 b d), (lt_div y2 b d), (lt_div y1 b d) by exact Hd. set (i := a / d). set (j := b / d).
  apply orb_prop in Hr. destruct Hr as [Hx|Hy].
  - apply Z.eqb_eq in Hx. subst x2. rewrite Z.eqb_refl. cbn [andb]. replace (x1 - x1) with 0 by lia. rewrite !Z.mul_0_r.
    destruct ((y1 <=? j) && (j <? y2)) eqn:U.
    + cbn [orb andb]. rewrite (proj1 (ltb_scaled _ _ _)), lt_div by lia. reflexivity.
    + destruct ((y2 <=? j) && (j <? y1)) eqn:V; cbn [orb andb]; [|reflexivity].
      rewrite (proj2 (ltb_scaled _ _ _)), lt_div by lia. reflexivity.
  - apply Z.eqb_eq in Hy. subst y2.
    assert (N : (y1 <=? j) && (j <? y1) = false) by lia.
    rewrite N. cbn [orb]. rewrite andb_false_r. reflexivity.
Qed.

Definition inside_cell (P : polygon) (i j : Z) : bool := fold_left xorb (map (crosses_cell i j) (all_edges P)) false.
Lemma parity_ext {A} (f g : A -> bool) l : (forall e, In e l -> f e = g e) -> fold_left xorb (map f l) false = fold_left xorb (map g l) false.
Proof. intro H. f_equal. apply map_ext_in, H. Qed.
Lemma inside_rect P p : 0 < qd p -> rectilinear P = true -> inside P p = inside_cell P (qa p / qd p) (qb p / qd p).
Proof.
  intros Hd Hr. apply parity_ext. intros e He. apply crosses_rect; [exact Hd|].
  unfold rectilinear in Hr. rewrite forallb_forall in Hr. apply Hr, He.
Qed.
Lemma inside_centre P i j : rectilinear P = true -> inside P (centre i j) = inside_cell P i j.
Proof.
  intro Hr. rewrite inside_rect by (cbn; lia || exact Hr). unfold centre. cbn [qa qb qd]. rewrite !centre_div. reflexivity.
Qed.

Definition clamp (lo hi v : Z) : Z := Z.max lo (Z.min v hi).
Definition in_box (x0 x1 y0 y1 : Z) (v : pt) : Prop := x0 < fst v <= x1 /\ y0 < snd v <= y1.
Lemma clamp_leb lo hi y v : lo < y <= hi -> (y <=? clamp lo hi v) = (y <=? v).
Proof. unfold clamp. lia. Qed.
Lemma clamp_ltb lo hi y v : lo < y <= hi -> (clamp lo hi v <? y) = (v <? y).
Proof. intro H. rewrite !Z.ltb_antisym, clamp_leb by exact H. reflexivity. Qed.
Lemma crosses_cell_clamp x0 x1 y0 y1 i j v w : in_box x0 x1 y0 y1 v -> in_box x0 x1 y0 y1 w ->
  crosses_cell i j (v, w) = crosses_cell (clamp x0 x1 i) (clamp y0 y1 j) (v, w).
Proof.
  destruct v as [xa ya], w as [xb yb]. unfold in_box, crosses_cell. cbn [fst snd]. intros [H1 H2] [H3 H4].
  rewrite !(clamp_leb y0 y1), !(clamp_ltb y0 y1), (clamp_ltb x0 x1) by assumption. reflexivity.
Qed.

Lemma zmin_le l : forall d, zmin l d <= d /\ forall x, In x l -> zmin l d <= x.
Proof.
  unfold zmin. induction l as [|y l IH]; intro d; cbn [fold_left]; [split; [lia|contradiction]|].
  destruct (IH (Z.min d y)) as [A B]. split; [lia|]. intros x [<-|H]; [lia|apply B, H].
Qed.
Lemma zmax_ge l : forall d, d <= zmax l d /\ forall x, In x l -> x <= zmax l d.
Proof.
  unfold zmax. induction l as [|y l IH]; intro d; cbn [fold_left]; [split; [lia|contradiction]|].
  destruct (IH (Z.max d y)) as [A B]. split; [lia|]. intros x [<-|H]; [lia|apply B, H].
Qed.
(* the edges of a contour pair each vertex with the next one, the last with the first *)
Lemma edges_from_eq first c : edges_from first c = List.combine c (tl c ++ [first]).
Proof. induction c as [|v c IH]; [reflexivity|]. destruct c as [|w c]; [reflexivity | exact (f_equal (cons (v, w)) IH)]. Qed.
Lemma edges_in c v w : In (v, w) (edges c) -> In v c /\ In w c.
Proof.
  destruct c as [|f c]; [contradiction|]. unfold edges. rewrite edges_from_eq. intro H. split; [exact (in_combine_l _ _ _ _ H)|].
  apply in_combine_r, in_app_or in H. destruct H as [H|[<-|[]]]; [right; exact H|left; reflexivity].
Qed.
Lemma all_edges_in P v w : In (v, w) (all_edges P) -> In v (concat P) /\ In w (concat P).
Proof.
  unfold all_edges. intro H. apply in_flat_map in H. destruct H as (c & Hc & He). destruct (edges_in c v w He) as [Hv Hw].
  split; apply in_concat; exists c; split; assumption.
Qed.

Lemma zrange_in : forall n lo i, In i (zrange lo n) <-> lo <= i < lo + Z.of_nat n.
Proof.
  induction n as [|n IH]; intros lo i; cbn [zrange].
  - split; [contradiction|lia].
  - rewrite Nat2Z.inj_succ. split.
    + intros [<-|H]; [lia|]. apply IH in H. lia.
    + intro H. destruct (Z.eq_dec lo i) as [->|Hne]; [left; reflexivity|right; apply IH; lia].
Qed.

Lemma vertex_in_box (c : list pt) xs ys : incl (map fst c) xs -> incl (map snd c) ys ->
  forall v, In v c -> in_box (zmin xs 0 - 1) (zmax xs 0) (zmin ys 0 - 1) (zmax ys 0) v.
Proof.
  intros Ix Iy v Hv. assert (Vx := Ix _ (in_map fst _ _ Hv)). assert (Vy := Iy _ (in_map snd _ _ Hv)).
  pose proof (proj2 (zmin_le xs 0) _ Vx). pose proof (proj2 (zmax_ge xs 0) _ Vx).
  pose proof (proj2 (zmin_le ys 0) _ Vy). pose proof (proj2 (zmax_ge ys 0) _ Vy). unfold in_box. lia.
Qed.

Lemma inside_clamped P x0 x1 y0 y1 p : 0 < qd p -> rectilinear P = true -> (forall v, In v (concat P) -> in_box x0 x1 y0 y1 v) ->
  inside P p = inside P (centre (clamp x0 x1 (qa p / qd p)) (clamp y0 y1 (qb p / qd p))).
Proof.
  intros Hd Hr Box. rewrite inside_centre, inside_rect by assumption. apply parity_ext. intros [v w] He.
  destruct (all_edges_in P v w He). apply crosses_cell_clamp; apply Box; assumption.
Qed.

Theorem validate_sound A B R o : validate A B R o = true ->
  forall p, 0 < qd p -> inside R p = combine o (inside A p) (inside B p).
Proof.
  unfold validate. intro H. apply andb_prop in H. destruct H as [H Hc]. apply andb_prop in H. destruct H as [H HR]. apply andb_prop in H. destruct H as [HA HB].
  intros p Hd. unfold check_cells, coords in Hc. cbn [fst snd] in Hc.
  set (xs := map fst (concat A) ++ map fst (concat B) ++ map fst (concat R)) in *. set (ys := map snd (concat A) ++ map snd (concat B) ++ map snd (concat R)) in *.
  set (x0 := zmin xs 0 - 1) in *. set (x1 := zmax xs 0) in *. set (y0 := zmin ys 0 - 1) in *. set (y1 := zmax ys 0) in *.
  rewrite (inside_clamped R x0 x1 y0 y1), (inside_clamped A x0 x1 y0 y1), (inside_clamped B x0 x1 y0 y1); try assumption;
    try (apply vertex_in_box; unfold xs, ys; auto using incl_appl, incl_appr, incl_refl).
  (* x0 <= x1 and y0 <= y1 because zmin and zmax both start from 0; so the clamped cell is among those check_cells compared *)
  pose proof (proj1 (zmin_le xs 0)). pose proof (proj1 (zmax_ge xs 0)). pose proof (proj1 (zmin_le ys 0)). pose proof (proj1 (zmax_ge ys 0)).
  rewrite forallb_forall in Hc. specialize (Hc (clamp x0 x1 (qa p / qd p))). rewrite forallb_forall in Hc.
  apply Bool.eqb_prop, Hc; apply zrange_in; unfold clamp; rewrite Z2Nat.id; lia.
Qed.
