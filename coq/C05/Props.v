(* C05 — Polygons have integer vertices; a point of the plane is (qa/qd, qb/qd) with qd > 0; [inside] is even-odd membership by exact
   crossing parity; [validate A B R o] is the executable check run on every result of the real clipper for rectilinear inputs. *)
From Coq Require Import ZArith List Bool.
From Verif Require Import C05.Spec C05.Proofs.
Import ListNotations.
Open Scope Z_scope.

(* If the validator accepts (A, B, R, op) then R is the pointwise Boolean combination of A and B at EVERY rational point of the
   plane: inside the bounding box, on lattice lines, and arbitrarily far outside *)
Theorem C05_validator_sound : forall A B R o, validate A B R o = true ->
  forall p, 0 < qd p -> inside R p = combine o (inside A p) (inside B p).
Proof. exact validate_sound. Qed.
Print Assumptions C05_validator_sound.

(* membership in a rectilinear integer polygon is constant on each unit cell (half-open, so also on the lattice lines) *)
Theorem C05_membership_constant_on_cells : forall P p, 0 < qd p -> rectilinear P = true -> inside P p = inside_cell P (qa p / qd p) (qb p / qd p).
Proof. exact inside_rect. Qed.
Print Assumptions C05_membership_constant_on_cells.

Module NonVacuous.
  Definition sq (x0 y0 x1 y1 : Z) : contour := [(x0, y0); (x1, y0); (x1, y1); (x0, y1)].
  Definition A : polygon := [sq 0 0 4 4].
  Definition B : polygon := [sq 2 2 6 6].
  Example union_accepted : validate A B [[(0,0); (4,0); (4,2); (6,2); (6,6); (2,6); (2,4); (0,4)]] OUnion = true. Proof. vm_compute. reflexivity. Qed.
  Example xor_with_hole_accepted : validate A B [[(0,0); (4,0); (4,2); (6,2); (6,6); (2,6); (2,4); (0,4)]; sq 2 2 4 4] OXor = true. Proof. vm_compute. reflexivity. Qed.
  Example wrong_result_rejected : validate A B [sq 0 0 6 6] OUnion = false. Proof. vm_compute. reflexivity. Qed.
  Example a_point_on_a_lattice_line : inside A {| qa := 4; qb := 1; qd := 1 |} = false /\ inside A {| qa := 0; qb := 7; qd := 2 |} = true. Proof. split; vm_compute; reflexivity. Qed.
End NonVacuous.
