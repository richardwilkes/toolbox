(* C16 — property theorems only.
   The sequential model treats Use, Tick, Close, New, SetCap as atomic (the controller's lock); the Close/ticker hand-shake, which
   is about the lock itself, is the separate finite transition system of Handshake.v. *)
From Coq Require Import ZArith List Bool Arith Permutation.
From Verif Require Import C16.Model C16.Proofs C16.Proofs2.
From Verif Require C16.Handshake.
Import ListNotations.
Open Scope Z_scope.

(* In every reachable state, for every limiter: 0 <= used <= max 0 capacity - nothing is ever granted beyond a cap.
   (Histories in which SetCap is used are outside this statement: lowering a cap below what was already granted breaks it by design.) *)
Theorem C16_used_never_exceeds_capacity : forall rootcap ops, Forall no_setcap ops ->
  forall i, 0 <= used (getl (final (init rootcap) ops) i) <= Z.max 0 (cap (getl (final (init rootcap) ops) i)).
Proof. intros rootcap ops H. exact (proj1 (proj2 (Inv_final ops (init rootcap) (Inv_init rootcap) H))). Qed.
Print Assumptions C16_used_never_exceeds_capacity.

(* A grant adds the amount to the limiter and to every one of its ancestors, and to no other limiter: so a child's consumption
   counts against each cap on its path to the root *)
Theorem C16_grant_charges_exactly_the_ancestor_chain : forall s i a, WF s -> forall k,
  getl (charge s i a) k = (if in_dec Nat.eq_dec k (chain_of s i) then if (k <? length (lims s))%nat then with_used (used (getl s k) + a) (getl s k) else getl s k else getl s k).
Proof. exact charge_spec. Qed.
Print Assumptions C16_grant_charges_exactly_the_ancestor_chain.
Theorem C16_tree_is_well_founded : forall rootcap ops, Forall no_setcap ops -> WF (final (init rootcap) ops).
Proof. intros rootcap ops _. apply WF_final, Inv_init. Qed.
Print Assumptions C16_tree_is_well_founded.

(* A tick answers or keeps every waiting request: none answered twice, none lost *)
Theorem C16_tick_answers_or_keeps_each_request : forall s, running s = true ->
  Permutation (map rid_of (waiting (fst (tick s))) ++ map fst (snd (tick s))) (map rid_of (waiting s)).
Proof. exact tick_answers_or_keeps. Qed.
Print Assumptions C16_tick_answers_or_keeps_each_request.

(* Closed is for ever; Close marks its limiter; closing the root fails every pending request and stops the ticker *)
Theorem C16_closed_stays_closed : forall s o, WF s -> stays_closed s (fst (step s o)).
Proof. intros s o _. apply closed_stays_closed. Qed.
Print Assumptions C16_closed_stays_closed.
Theorem C16_close_marks_closed : forall s i, (i < length (lims s))%nat -> closed (getl (fst (close s i)) i) = true.
Proof. exact close_marks_closed. Qed.
Print Assumptions C16_close_marks_closed.
Theorem C16_root_close_fails_all_pending : forall s, closed (getl s 0%nat) = false -> parent (getl s 0%nat) = None ->
  snd (close s 0%nat) = map (fun q => (fst (fst q), ErrClosed)) (waiting s) /\ waiting (fst (close s 0%nat)) = [] /\ running (fst (close s 0%nat)) = false.
Proof. exact root_close_answers_everyone. Qed.
Print Assumptions C16_root_close_fails_all_pending.

(* LastUsed. [desc (S n) s 0 k]: limiter k lies in the tree below the root (following the kids lists, the way the
   ticker's reset walks it); [att s k]: k is attached to the root through the kids lists. *)
(* the kids lists and the parent pointers describe a tree in every reachable state: a child's parent is the node that lists it, its
   index is allocated, and no node lists a child twice *)
Theorem C16_kids_lists_form_a_tree : forall rootcap ops, Forall no_setcap ops ->
  K1 (final (init rootcap) ops) /\ K2 (final (init rootcap) ops).
Proof. intros rootcap ops H. exact (KK_final ops (init rootcap) (KK_init rootcap)). Qed.
Print Assumptions C16_kids_lists_form_a_tree.
(* reset rewrites exactly the nodes of the subtree it is called on, each of them once: used := 0, last := the used of before *)
Theorem C16_reset_rewrites_exactly_the_subtree : forall fuel s i, K1 s -> K2 s -> WF s ->
  forall k, getl (reset fuel s i) k = if desc fuel s i k then reset_one (getl s k) else getl s k.
Proof. exact reset_spec. Qed.
Print Assumptions C16_reset_rewrites_exactly_the_subtree.
(* the walk reaches every attached limiter, however deep the tree *)
Theorem C16_every_attached_limiter_is_reached : forall s, K1 s -> WF s -> forall k, att s k -> (k < length (lims s))%nat ->
  desc (S (length (lims s))) s 0 k = true.
Proof. exact attached_is_reached. Qed.
Print Assumptions C16_every_attached_limiter_is_reached.
(* In every history, at every tick, LastUsed of every limiter of the tree becomes the amount charged to it - its own grants
   and its descendants' (C16_grant_charges_exactly_the_ancestor_chain) - in the period that ends; the grants served by the tick itself
   count for the new period *)
Theorem C16_last_used_reports_the_period_that_ended : forall rootcap ops, Forall no_setcap ops ->
  let s := final (init rootcap) ops in running s = true ->
  forall k, desc (S (length (lims s))) s 0 k = true -> last (getl (fst (tick s)) k) = used (getl s k).
Proof. intros rootcap ops _. apply last_used_in_every_history. Qed.
Print Assumptions C16_last_used_reports_the_period_that_ended.
(* non-vacuity: root 10 with a child 5 and a grandchild 3; Use(2) on the grandchild, then a tick: all three report 2 *)
Example C16_ex_last_used :
  let s := final (init 10) [ONew 0 5; ONew 1 3; OUse 1 2 2] in
  (desc 4 s 0 2, map (fun k => last (getl (fst (tick s)) k)) [0; 1; 2]%nat, map (fun k => used (getl (fst (tick s)) k)) [0; 1; 2]%nat) = (true, [2; 2; 2], [0; 0; 0]).
Proof. vm_compute. reflexivity. Qed.

(* The hand-shake (order in the code now: Lock; mark; Unlock; done <- true): under every schedule of the caller of Close and the
   ticker goroutine, with a tick available at every instant, no reachable state is stuck and completion stays possible;
   the state space has at most 72 states and is enumerated by the kernel. Before the repair a stuck state was reachable. *)
Theorem C16_close_never_deadlocks : forall s, Handshake.reach_rel true s -> Handshake.stuck true s = false.
Proof. exact Handshake.never_stuck. Qed.
Print Assumptions C16_close_never_deadlocks.
Theorem C16_close_can_always_complete : forall s, Handshake.reach_rel true s -> existsb Handshake.final (Handshake.reach 72 true [s]) = true.
Proof. exact Handshake.can_always_complete. Qed.
Print Assumptions C16_close_can_always_complete.
Theorem C16_deadlock_before_repair_refuted : exists s, Handshake.reach_rel false s /\ Handshake.stuck false s = true.
Proof. exact Handshake.stuck_before_repair. Qed.
Print Assumptions C16_deadlock_before_repair_refuted.

(* a concrete history: child cap larger than the parent's, waiting, tick, close *)
Module NonVacuous.
  Definition ops := [ONew 0%nat 30; OUse 1%nat 1%nat 8; OUse 2%nat 1%nat 5; OUse 3%nat 0%nat 2; OTick; OUse 4%nat 1%nat 31; OUse 5%nat 1%nat (-1); OClose 1%nat; OUse 6%nat 1%nat 1; OUse 7%nat 0%nat 9; OClose 0%nat].
  Example no_setcap_here : Forall no_setcap ops. Proof. repeat constructor. Qed.
  Example history : map fst (run (init 10) ops) =
    [ []; [(1%nat, Granted)]; []; [(3%nat, Granted)]; [(2%nat, Granted)]; [(4%nat, ErrCap)]; [(5%nat, ErrNeg)]; []; [(6%nat, ErrClosed)]; []; [(7%nat, ErrClosed)] ].
  Proof. vm_compute. reflexivity. Qed.
End NonVacuous.
