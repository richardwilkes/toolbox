(* C16 — the accounting invariant, and what the operations leave alone. The latter is said by lifting a relation between the two
   versions of one limiter to the table ([lift]): reset, close_rec, charge and the tick's serving loop each keep every lifted
   preorder that their one-limiter update keeps. *)
From Coq Require Import ZArith List Bool Arith Lia Permutation.
From Verif Require Import common.ListFacts C16.Model.
Import ListNotations.
Open Scope Z_scope.

Lemma setl_length : forall l i x, length (setl l i x) = length l.
Proof. induction l as [|y l IH]; intros [|i] x; cbn; try reflexivity; f_equal; apply IH. Qed.
Lemma nth_setl : forall l i x k d, nth k (setl l i x) d = if (k =? i)%nat && (i <? length l)%nat then x else nth k l d.
Proof.
  induction l as [|y l IH]; intros i x k d.
  - cbn. destruct i, k; cbn; try reflexivity; rewrite andb_false_r; reflexivity.
  - destruct i as [|i], k as [|k]; cbn [setl nth length]; try reflexivity.
    rewrite IH. change (S k =? S i)%nat with (k =? i)%nat. change (S i <? S (length l))%nat with (i <? length l)%nat. reflexivity.
Qed.
Lemma getl_upd s i f k : getl (upd s i f) k = if (k =? i)%nat && (i <? length (lims s))%nat then f (getl s i) else getl s k.
Proof. unfold getl, upd. cbn [lims]. apply nth_setl. Qed.
Lemma getl_upd_cases s i f k : getl (upd s i f) k = getl s k \/ (k = i /\ getl (upd s i f) k = f (getl s i)).
Proof.
  rewrite getl_upd. destruct (Nat.eqb_spec k i) as [->|]; [|left; reflexivity].
  destruct (i <? length (lims s))%nat; [right|left]; auto.
Qed.
Lemma getl_upd_same s i f : (i < length (lims s))%nat -> getl (upd s i f) i = f (getl s i).
Proof. intro H. rewrite getl_upd, Nat.eqb_refl, (proj2 (Nat.ltb_lt _ _) H). reflexivity. Qed.
Lemma len_upd s i f : length (lims (upd s i f)) = length (lims s).
Proof. unfold upd. cbn [lims]. apply setl_length. Qed.
Lemma getl_out s k : (length (lims s) <= k)%nat -> getl s k = dflt.
Proof. intro H. unfold getl. apply nth_overflow. exact H. Qed.
(* an update that maps the default limiter to itself need not know whether its index is allocated *)
Lemma getl_upd_dflt s i f k : f dflt = dflt -> getl (upd s i f) k = if (k =? i)%nat then f (getl s k) else getl s k.
Proof.
  intro D. rewrite getl_upd. destruct (Nat.eqb_spec k i) as [->|]; [|reflexivity].
  destruct (Nat.ltb_spec i (length (lims s))) as [L|L]; [reflexivity|]. rewrite (getl_out s i L). symmetry. exact D.
Qed.
Lemma open_in_range s p : closed (getl s p) = false -> (p < length (lims s))%nat.
Proof. intro Cl. destruct (le_lt_dec (length (lims s)) p) as [H|H]; [|exact H]. rewrite (getl_out s p H) in Cl. discriminate. Qed.
Lemma getl_app_new s x k : getl {| lims := lims s ++ [x]; waiting := waiting s; running := running s |} k =
  if (k <? length (lims s))%nat then getl s k else if (k =? length (lims s))%nat then x else dflt.
Proof.
  unfold getl. cbn [lims]. destruct (Nat.ltb_spec k (length (lims s))) as [H|H].
  - apply app_nth1. exact H.
  - rewrite app_nth2 by exact H. destruct (Nat.eqb_spec k (length (lims s))) as [->|Hn].
    + rewrite Nat.sub_diag. reflexivity.
    + destruct (k - length (lims s))%nat as [|[|m]] eqn:E; [lia|reflexivity|reflexivity].
Qed.

Definition bump (a : Z) (s : st) (j : nat) := upd s j (fun l => with_used (used l + a) l).
Lemma charge_eq s i a : charge s i a = fold_left (bump a) (chain_of s i) s.
Proof. reflexivity. Qed.

Lemma serve_cases s rem out rid i a :
  (exists s' an, (s' = s \/ (a <= avail s i /\ s' = charge s i a)) /\ serve (s, rem, out) (rid, i, a) = (s', rem, out ++ [(rid, an)])) \/
  serve (s, rem, out) (rid, i, a) = (s, rem ++ [(rid, i, a)], out).
Proof.
  unfold serve. destruct (closed (getl s i)); [left; eauto|]. destruct (cap (getl s i) <? a); [left; eauto|].
  destruct (_ && _) eqn:E; [left|right; reflexivity]. apply andb_prop in E. destruct E as [_ E]. apply Z.leb_le in E. eauto 6.
Qed.

(* Induction over the loop. [P s rem] speaks of the table and of the requests kept waiting so far; if every grant of an affordable
   amount and every request put back keep it, it holds at the end. [Qr] is what is known of each request in the queue. *)
Lemma serve_loop (Qr : nat * nat * Z -> Prop) (P : st -> list (nat * nat * Z) -> Prop) :
  (forall s rem rid i a, P s rem -> Qr (rid, i, a) -> a <= avail s i -> P (charge s i a) rem) ->
  (forall s rem q, P s rem -> Qr q -> P s (rem ++ [q])) ->
  forall reqs s rem out, Forall Qr reqs -> P s rem ->
  P (fst (fst (fold_left serve reqs (s, rem, out)))) (snd (fst (fold_left serve reqs (s, rem, out)))).
Proof.
  intros HG HK. induction reqs as [|[[rid i] a] reqs IH]; intros s rem out HQ HP; cbn [fold_left]; [exact HP|].
  inversion HQ as [|? ? Hq HQ']; subst.
  destruct (serve_cases s rem out rid i a) as [(s' & an & [->|[Hav ->]] & ->)| ->]; apply IH; eauto.
Qed.

Definition lift (P : lim -> lim -> Prop) (s s' : st) : Prop := length (lims s') = length (lims s) /\ forall k, P (getl s k) (getl s' k).
Section Lift.
Variable P : lim -> lim -> Prop.
Hypothesis Prefl : forall l, P l l.
Hypothesis Ptrans : forall a b c, P a b -> P b c -> P a c.
Lemma lift_refl s : lift P s s.
Proof. split; auto. Qed.
Lemma lift_trans a b c : lift P a b -> lift P b c -> lift P a c.
Proof. intros [L1 G1] [L2 G2]. split; [congruence|]. intro k. eapply Ptrans; [apply G1|apply G2]. Qed.
Lemma lift_upd s i f : (forall l, P l (f l)) -> lift P s (upd s i f).
Proof. intro H. split; [apply len_upd|]. intro k. destruct (getl_upd_cases s i f k) as [->|[-> ->]]; auto. Qed.
Lemma lift_fold (g : st -> nat -> st) : (forall s i, lift P s (g s i)) -> forall l s, lift P s (fold_left g l s).
Proof. apply fold_left_rel; [exact lift_refl|exact lift_trans]. Qed.
Lemma lift_reset : (forall l, P l (reset_one l)) -> forall fuel s i, lift P s (reset fuel s i).
Proof.
  intro H. induction fuel as [|f IH]; intros s i; cbn [reset]; [apply lift_refl|].
  eapply lift_trans; [apply lift_upd, H|apply lift_fold, IH].
Qed.
Lemma lift_close_rec : (forall l, P l (with_closed l)) -> forall fuel s i, lift P s (close_rec fuel s i).
Proof.
  intro H. induction fuel as [|f IH]; intros s i; cbn [close_rec]; [apply lift_refl|].
  eapply lift_trans; [apply lift_upd, H|apply lift_fold, IH].
Qed.
Lemma lift_lims s s' : lims s' = lims s -> lift P s s'.
Proof. intro E. unfold lift, getl. rewrite E. split; [reflexivity|]. intro k. apply Prefl. Qed.
Lemma lift_close s i : (forall l, P l (with_closed l)) -> (forall l g, P l (with_kids (filter g (kids l)) l)) -> lift P s (fst (close s i)).
Proof.
  intros Hc Hk. unfold close. destruct (closed (getl s i)); [apply lift_refl|]. cbv zeta.
  destruct (parent (getl s i)) as [p|]; cbn [fst]; [|apply lift_close_rec, Hc].
  eapply lift_trans; [apply lift_close_rec, Hc|]. apply lift_upd. intro l. apply Hk.
Qed.
Hypothesis Pused : forall l u, P l (with_used u l).
Lemma lift_charge s i a : lift P s (charge s i a).
Proof. apply lift_fold. intros s0 j. apply lift_upd. intro l. apply Pused. Qed.
Lemma lift_serve reqs s rem out : lift P s (fst (fst (fold_left serve reqs (s, rem, out)))).
Proof.
  apply (serve_loop (fun _ => True) (fun s' _ => lift P s s')); [|auto|apply Forall_forall; trivial|apply lift_refl].
  intros s0 rem0 rid i a H _ _. eapply lift_trans; [exact H|apply lift_charge].
Qed.
Lemma lift_use s rid i a : lift P s (fst (use s rid i a)).
Proof.
  unfold use. destruct (a <? 0); [apply lift_refl|]. destruct (a =? 0); [apply lift_refl|].
  destruct (closed (getl s i)); [apply lift_refl|]. destruct (cap (getl s i) <? a); [apply lift_refl|].
  destruct (a <=? avail s i); [apply lift_charge|apply lift_lims; reflexivity].
Qed.
Lemma lift_tick s : (forall l, P l (reset_one l)) -> lift P s (fst (tick s)).
Proof.
  intro H. unfold tick. destruct (negb (running s)); [apply lift_refl|].
  pose proof (lift_serve (waiting s) (reset (S (length (lims s))) s 0%nat) [] []) as T.
  destruct (fold_left serve (waiting s) _) as [[s1 rem] out]. cbn [fst] in *.
  apply (lift_trans _ (reset (S (length (lims s))) s 0%nat)); [apply lift_reset, H|].
  apply (lift_trans _ s1); [exact T|apply lift_lims; reflexivity].
Qed.
(* every operation but New, at once *)
Lemma lift_step s o : (forall l, P l (reset_one l)) -> (forall l, P l (with_closed l)) -> (forall l g, P l (with_kids (filter g (kids l)) l)) ->
  (forall l c, P l (with_cap c l)) -> match o with ONew _ _ => True | _ => lift P s (fst (step s o)) end.
Proof.
  intros Hr Hc Hk Hp. destruct o as [rid i a| |i|p c|i c]; cbn [step fst]; [| | |exact I|].
  - pose proof (lift_use s rid i a) as U. destruct (use s rid i a) as [s' x]. exact U.
  - apply lift_tick, Hr.
  - apply lift_close; assumption.
  - apply lift_upd. intro l. apply Hp.
Qed.
End Lift.
Definition spent (l l' : lim) : Prop := parent l' = parent l /\ cap l' = cap l /\ last l' = last l /\ closed l' = closed l /\ kids l' = kids l.
Lemma spent_refl l : spent l l. Proof. repeat split. Qed.
Lemma spent_trans a b c : spent a b -> spent b c -> spent a c.
Proof. unfold spent. intuition congruence. Qed.
Lemma spent_used l u : spent l (with_used u l). Proof. repeat split. Qed.
Definition charge_spent := lift_charge spent spent_refl spent_trans spent_used.
Definition serve_spent := lift_serve spent spent_refl spent_trans spent_used.
Definition calm (l l' : lim) : Prop :=
  parent l' = parent l /\ cap l' = cap l /\ (used l' = 0 \/ used l' = used l) /\ (closed l = true -> closed l' = true).
Lemma calm_refl l : calm l l. Proof. repeat split; auto. Qed.
Lemma calm_trans a b c : calm a b -> calm b c -> calm a c.
Proof. unfold calm. intros (P1 & C1 & U1 & M1) (P2 & C2 & U2 & M2). repeat split; try congruence; [|auto]. destruct U2 as [U2|U2]; [left; exact U2|]. rewrite U2. exact U1. Qed.
Definition tame := lift calm.
Lemma tame_upd s i f : (forall l, calm l (f l)) -> tame s (upd s i f).
Proof. apply lift_upd, calm_refl. Qed.
Lemma tame_reset fuel s i : tame s (reset fuel s i).
Proof. apply (lift_reset calm calm_refl calm_trans). intro l. unfold calm. cbn. auto. Qed.
Lemma tame_close_rec fuel s i : tame s (close_rec fuel s i).
Proof. apply (lift_close_rec calm calm_refl calm_trans). intro l. unfold calm. cbn. auto. Qed.

Lemma fold_waiting (g : st -> nat -> st) : (forall s i, waiting (g s i) = waiting s) -> forall l s, waiting (fold_left g l s) = waiting s.
Proof. apply (fold_left_rel (fun s s' => waiting s' = waiting s)); congruence. Qed.
Lemma charge_waiting s i a : waiting (charge s i a) = waiting s.
Proof. apply fold_waiting. reflexivity. Qed.
Lemma close_rec_waiting : forall fuel s i, waiting (close_rec fuel s i) = waiting s.
Proof. induction fuel as [|f IH]; intros s i; cbn [close_rec]; [reflexivity|]. rewrite (fold_waiting _ IH). reflexivity. Qed.
Lemma reset_waiting : forall fuel s i, waiting (reset fuel s i) = waiting s.
Proof. induction fuel as [|f IH]; intros s i; cbn [reset]; [reflexivity|]. rewrite (fold_waiting _ IH). reflexivity. Qed.

Definition WF (s : st) : Prop := forall i p, parent (getl s i) = Some p -> (p < i)%nat.
Definition BND (s : st) : Prop := forall i, 0 <= used (getl s i) <= Z.max 0 (cap (getl s i)).
Definition QPOS (s : st) : Prop := Forall (fun q => 0 < snd q) (waiting s).
Definition Inv (s : st) : Prop := WF s /\ BND s /\ QPOS s.

Lemma lift_WF (P : lim -> lim -> Prop) s s' : (forall l l', P l l' -> parent l' = parent l) -> lift P s s' -> WF s -> WF s'.
Proof. intros HP [_ G] H i p E. rewrite (HP _ _ (G i)) in E. apply (H i p E). Qed.
Lemma tame_Inv s s' : tame s s' -> waiting s' = waiting s -> Inv s -> Inv s'.
Proof.
  intros T Wt (W & B & Q). split; [apply (lift_WF calm s s' (fun l l' H => proj1 H) T W)|]. split; [|unfold QPOS; rewrite Wt; exact Q].
  intro k. destruct T as [_ G]. destruct (G k) as (_ & C & U & _). rewrite C. specialize (B k). destruct U as [U|U]; rewrite U; lia.
Qed.
Lemma Inv_lims s s' : lims s' = lims s -> Forall (fun q => 0 < snd q) (waiting s') -> Inv s -> Inv s'.
Proof.
  intros E Q (W & B & _). unfold Inv, WF, BND, getl in *. rewrite E. repeat split; try assumption; apply B.
Qed.

Lemma chain_le s : WF s -> forall fuel i j, In j (chain fuel s i) -> (j <= i)%nat.
Proof.
  intros W. induction fuel as [|f IH]; intros i j H; [contradiction|]. cbn [chain] in H. destruct H as [<-|H]; [lia|].
  destruct (parent (getl s i)) as [p|] eqn:E; [|contradiction]. specialize (W i p E). specialize (IH p j H). lia.
Qed.
Lemma chain_nodup s : WF s -> forall fuel i, NoDup (chain fuel s i).
Proof.
  intros W. induction fuel as [|f IH]; intro i; [constructor|]. cbn [chain]. constructor.
  - destruct (parent (getl s i)) as [p|] eqn:E; [|intros []]. intro H. apply (chain_le s W) in H. specialize (W i p E). lia.
  - destruct (parent (getl s i)); [apply IH|constructor].
Qed.

Theorem charge_spec s i a : WF s -> forall k,
  getl (charge s i a) k = (if in_dec Nat.eq_dec k (chain_of s i)
                           then if (k <? length (lims s))%nat then with_used (used (getl s k) + a) (getl s k) else getl s k
                           else getl s k).
Proof.
  intros W k. rewrite charge_eq. revert k.
  assert (H : forall l s0, NoDup l -> forall k, getl (fold_left (bump a) l s0) k =
            if in_dec Nat.eq_dec k l
            then if (k <? length (lims s0))%nat then with_used (used (getl s0 k) + a) (getl s0 k) else getl s0 k
            else getl s0 k).
  { induction l as [|j l IH]; intros s0 ND k; cbn [fold_left]; [reflexivity|]. inversion ND as [|? ? Hnotin ND']; subst.
    rewrite IH by exact ND'. change (bump a s0 j) with (upd s0 j (fun l => with_used (used l + a) l)). rewrite len_upd, !getl_upd.
    destruct (in_dec Nat.eq_dec k (j :: l)) as [[->|Hin]|Hn].
    - destruct (in_dec Nat.eq_dec k l); [contradiction|]. rewrite Nat.eqb_refl. cbn [andb]. destruct (k <? length (lims s0))%nat; reflexivity.
    - destruct (in_dec Nat.eq_dec k l); [|contradiction]. assert (k <> j) by (intros ->; contradiction).
      rewrite (proj2 (Nat.eqb_neq k j)) by assumption. reflexivity.
    - destruct (in_dec Nat.eq_dec k l) as [Hin|_]; [exfalso; apply Hn; right; exact Hin|].
      assert (k <> j) by (intros ->; apply Hn; left; reflexivity). rewrite (proj2 (Nat.eqb_neq k j)) by assumption. reflexivity. }
  apply H. apply chain_nodup, W.
Qed.

Lemma fold_min_le s : forall l acc, fold_left (fun a j => Z.min a (room s j)) l acc <= acc.
Proof. apply (fold_left_rel (fun a b => b <= a)); intros; lia. Qed.
Lemma avail_le s : forall l acc j, In j l -> fold_left (fun a j => Z.min a (room s j)) l acc <= room s j.
Proof.
  induction l as [|x l IH]; intros acc j H; [contradiction|]. cbn [fold_left]. destruct H as [<-|H]; [|apply IH, H].
  etransitivity; [apply fold_min_le|]. lia.
Qed.

Lemma Inv_charge s i a : Inv s -> 0 < a -> a <= avail s i -> Inv (charge s i a).
Proof.
  intros (W & B & Q) Ha Hav. split; [apply (lift_WF spent s _ (fun l l' H => proj1 H) (charge_spent s i a) W)|]. split; [|unfold QPOS; rewrite charge_waiting; exact Q].
  intro k. rewrite charge_spec by exact W. destruct (in_dec Nat.eq_dec k (chain_of s i)) as [Hin|]; [|apply B].
  destruct (k <? length (lims s))%nat; [|apply B]. cbn [used cap with_used].
  specialize (B k). assert (a <= room s k) by (etransitivity; [exact Hav|apply avail_le, Hin]). unfold room in *. lia.
Qed.

Lemma Inv_use s rid i a : Inv s -> Inv (fst (use s rid i a)).
Proof.
  intro I. unfold use. destruct (a <? 0) eqn:E1; [exact I|]. destruct (a =? 0) eqn:E2; [exact I|].
  destruct (closed (getl s i)); [exact I|]. destruct (cap (getl s i) <? a); [exact I|].
  apply Z.ltb_ge in E1. apply Z.eqb_neq in E2. destruct (a <=? avail s i) eqn:E3; cbn [fst].
  - apply Inv_charge; [exact I|lia|apply Z.leb_le, E3].
  - apply (Inv_lims s); [reflexivity| |exact I]. cbn [waiting]. destruct I as (_ & _ & Q). apply Forall_snoc; [exact Q|cbn; lia].
Qed.

Lemma Inv_tick s : Inv s -> Inv (fst (tick s)).
Proof.
  intro I. unfold tick. destruct (negb (running s)); [exact I|].
  set (s0 := reset (S (length (lims s))) s 0%nat). set (pos := fun q : nat * nat * Z => 0 < snd q).
  assert (I0 : Inv s0) by (apply (tame_Inv s); [apply tame_reset|apply reset_waiting|exact I]).
  destruct (serve_loop pos (fun s1 rem => Inv s1 /\ Forall pos rem)) with (reqs := waiting s) (s := s0) (rem := @nil (nat * nat * Z)) (out := @nil (nat * ans)) as [A B].
  - intros s1 rem rid i a [I1 R] Ha Hav. split; [apply Inv_charge; assumption|exact R].
  - intros s1 rem q [I1 R] Hq. split; [exact I1|]. apply Forall_app. split; [exact R|]. constructor; [exact Hq|constructor].
  - apply I.
  - split; [exact I0|constructor].
  - destruct (fold_left serve (waiting s) (s0, [], [])) as [[s1 rem] out]. apply (Inv_lims s1); [reflexivity|exact B|exact A].
Qed.

Lemma Inv_close s i : Inv s -> Inv (fst (close s i)).
Proof.
  intro I. unfold close. destruct (closed (getl s i)); [exact I|].
  set (s1 := close_rec (S (length (lims s))) s i).
  assert (I1 : Inv s1) by (apply (tame_Inv s); [apply tame_close_rec|apply close_rec_waiting|exact I]).
  destruct (parent (getl s i)) as [p|]; cbn [fst].
  - apply (tame_Inv s1); [|reflexivity|exact I1]. apply tame_upd. intro l. unfold calm. cbn. auto.
  - apply (Inv_lims s1); [reflexivity|constructor|exact I1].
Qed.

Definition newborn (p : nat) (c : Z) : lim := {| parent := Some p; cap := c; used := 0; last := 0; closed := false; kids := [] |}.
Lemma new_child_spec s p c : closed (getl s p) = false -> let n := length (lims s) in
  length (lims (new_child s p c)) = S n /\ waiting (new_child s p c) = waiting s /\
  forall k, let g := getl (new_child s p c) k in
    (k = p /\ g = with_kids (kids (getl s p) ++ [n]) (getl s p)) \/ (k <> p /\ (k < n)%nat /\ g = getl s k) \/
    (k = n /\ g = newborn p c) \/ ((n < k)%nat /\ g = dflt).
Proof.
  intros Cl n. pose proof (open_in_range s p Cl) as Hp. unfold new_child. rewrite Cl. cbv zeta.
  match goal with |- context[upd ?x _ _] => set (s1 := x) end.
  assert (L1 : length (lims s1) = S n) by (unfold s1; cbn [lims]; rewrite app_length; cbn; lia).
  assert (Gp : getl s1 p = getl s p) by (unfold s1; rewrite getl_app_new, (proj2 (Nat.ltb_lt _ _) Hp); reflexivity).
  split; [rewrite len_upd; exact L1|]. split; [reflexivity|]. intro k. rewrite getl_upd, L1, (proj2 (Nat.ltb_lt p (S n))), andb_true_r, Gp by lia.
  destruct (Nat.eqb_spec k p) as [->|NE]; [left; auto|right]. unfold s1. rewrite getl_app_new. fold n.
  destruct (Nat.ltb_spec k n); [left; auto|right]. destruct (Nat.eqb_spec k n); [left; auto|right; split; [lia|reflexivity]].
Qed.

Lemma WF_new s p c : WF s -> WF (new_child s p c).
Proof.
  intro W. destruct (closed (getl s p)) eqn:Cl; [unfold new_child; rewrite Cl; exact W|].
  destruct (new_child_spec s p c Cl) as (_ & _ & G). intros k q.
  destruct (G k) as [(-> & ->)|[(_ & _ & ->)|[(-> & ->)|(_ & ->)]]]; [apply W|apply W| |discriminate]. intros [= <-]. apply open_in_range, Cl.
Qed.
Lemma Inv_new s p c : Inv s -> Inv (new_child s p c).
Proof.
  intros (W & B & Q). split; [apply WF_new, W|]. destruct (closed (getl s p)) eqn:Cl; [unfold new_child; rewrite Cl; exact (conj B Q)|].
  destruct (new_child_spec s p c Cl) as (_ & Wt & G). split; [|unfold QPOS; rewrite Wt; exact Q].
  intro k. destruct (G k) as [(-> & ->)|[(_ & _ & ->)|[(_ & ->)|(_ & ->)]]]; [apply B|apply B|cbn; lia|cbn; lia].
Qed.

Definition no_setcap (o : op) : Prop := match o with OSetCap _ _ => False | _ => True end.
Lemma Inv_step s o : Inv s -> no_setcap o -> Inv (fst (step s o)).
Proof.
  intros I H. destruct o as [rid i a| |i|p c|i c]; cbn [step].
  - pose proof (Inv_use s rid i a I) as U. destruct (use s rid i a) as [s' x]. exact U.
  - apply Inv_tick, I.
  - apply Inv_close, I.
  - apply Inv_new, I.
  - contradiction.
Qed.
Lemma Inv_init c : Inv (init c).
Proof.
  split; [|split].
  - intros [|[|k]] p H; cbn in H; discriminate.
  - intros [|[|k]]; cbn; lia.
  - constructor.
Qed.
Definition final (s : st) (ops : list op) : st := fold_left (fun s o => fst (step s o)) ops s.
Theorem Inv_final ops s : Inv s -> Forall no_setcap ops -> Inv (final s ops).
Proof. apply (fold_left_inv_Forall Inv no_setcap), Inv_step. Qed.

Definition stays_closed (s s' : st) : Prop := forall k, (k < length (lims s))%nat -> closed (getl s k) = true -> closed (getl s' k) = true.
Definition steady (l l' : lim) : Prop := parent l' = parent l /\ (closed l = true -> closed l' = true).
Lemma steady_refl l : steady l l. Proof. split; auto. Qed.
Lemma steady_trans a b c : steady a b -> steady b c -> steady a c.
Proof. unfold steady. intros [P1 M1] [P2 M2]. split; [congruence|auto]. Qed.
Lemma steady_used l u : steady l (with_used u l). Proof. split; auto. Qed.

Lemma step_steady s o : match o with ONew _ _ => True | _ => lift steady s (fst (step s o)) end.
Proof. apply (lift_step steady steady_refl steady_trans steady_used); intros; split; auto. Qed.

Theorem closed_stays_closed s o : stays_closed s (fst (step s o)).
Proof.
  pose proof (step_steady s o) as T. destruct o as [rid i a| |i|p c|i c]; try (intros k _; apply (proj2 T k)).
  cbn [step fst]. intros k Hk H. destruct (closed (getl s p)) eqn:Cl; [unfold new_child; rewrite Cl; exact H|].
  destruct (new_child_spec s p c Cl) as (_ & _ & G). destruct (G k) as [(-> & ->)|[(_ & _ & ->)|[(-> & _)|(L & _)]]]; [exact H|exact H|lia|lia].
Qed.

Lemma WF_step s o : WF s -> WF (fst (step s o)).
Proof.
  pose proof (step_steady s o) as T. destruct o as [rid i a| |i|p c|i c]; try apply (lift_WF steady _ _ (fun l l' H => proj1 H) T).
  apply WF_new.
Qed.
Theorem WF_final ops s : WF s -> WF (final s ops).
Proof. apply (fold_left_inv WF). intros s0 o. apply WF_step. Qed.

Lemma close_rec_marks : forall fuel s i, (i < length (lims s))%nat -> closed (getl (close_rec (S fuel) s i) i) = true.
Proof.
  intros fuel s i Hi. cbn [close_rec].
  destruct (lift_fold steady steady_refl steady_trans (close_rec fuel) (fun s0 j => lift_close_rec steady steady_refl steady_trans (fun l => conj eq_refl (fun _ => eq_refl)) fuel s0 j) (kids (getl s i)) (upd s i with_closed)) as [_ G].
  apply G. rewrite getl_upd_same by exact Hi. reflexivity.
Qed.
Theorem close_marks_closed s i : (i < length (lims s))%nat -> closed (getl (fst (close s i)) i) = true.
Proof.
  intro Hi. unfold close. destruct (closed (getl s i)) eqn:C; [exact C|]. cbv zeta.
  pose proof (close_rec_marks (length (lims s)) s i Hi) as H. destruct (parent (getl s i)) as [p|] eqn:P; cbn [fst]; [|exact H].
  destruct (getl_upd_cases (close_rec (S (length (lims s))) s i) p (fun l => with_kids (filter (fun k => negb (k =? i)%nat) (kids l)) l) i) as [->|[-> ->]]; exact H.
Qed.
Theorem root_close_answers_everyone s : closed (getl s 0%nat) = false -> parent (getl s 0%nat) = None ->
  snd (close s 0%nat) = map (fun q => (fst (fst q), ErrClosed)) (waiting s) /\ waiting (fst (close s 0%nat)) = [] /\ running (fst (close s 0%nat)) = false.
Proof.
  intros C P. unfold close. rewrite C, P. cbn [fst snd waiting running]. rewrite close_rec_waiting. repeat split.
Qed.

Definition rid_of (q : nat * nat * Z) : nat := fst (fst q).
Lemma serve_partition : forall reqs s rem out,
  Permutation (map rid_of (snd (fst (fold_left serve reqs (s, rem, out)))) ++ map fst (snd (fold_left serve reqs (s, rem, out))))
              (map rid_of rem ++ map fst out ++ map rid_of reqs).
Proof.
  induction reqs as [|[[rid i] a] reqs IH]; intros s rem out; cbn [fold_left].
  - cbn. rewrite app_nil_r. apply Permutation_refl.
  - destruct (serve_cases s rem out rid i a) as [(s' & an & _ & E)|E]; rewrite E; (etransitivity; [apply IH|]).
    + rewrite map_app, <- app_assoc. reflexivity.
    + rewrite map_app. cbn [map rid_of fst]. rewrite <- app_assoc. cbn [app].
      apply Permutation_app_head. apply Permutation_middle.
Qed.
Theorem tick_answers_or_keeps s : running s = true ->
  Permutation (map rid_of (waiting (fst (tick s))) ++ map fst (snd (tick s))) (map rid_of (waiting s)).
Proof.
  intro R. unfold tick. rewrite R. cbn [negb].
  pose proof (serve_partition (waiting s) (reset (S (length (lims s))) s 0%nat) [] []) as P.
  destruct (fold_left serve (waiting s) (reset (S (length (lims s))) s 0%nat, [], [])) as [[s1 rem] out]. cbn [fst snd waiting] in *. exact P.
Qed.
