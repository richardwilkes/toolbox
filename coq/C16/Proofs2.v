(* C16 — LastUsed: the kids lists describe a tree in every reachable state, reset rewrites exactly the subtree it is called on (each node
   once), grants never touch LastUsed; hence at every tick LastUsed of every limiter of the tree becomes what was charged to it in the
   period that ends. *)
From Coq Require Import ZArith List Bool Arith Lia.
From Verif Require Import common.ListFacts C16.Model C16.Proofs.
Import ListNotations.
Open Scope Z_scope.

(* [up]: the parent pointer. [K1]: a node listed as a child has the listing node as its parent, and an allocated index. [K2]: no node
   lists a child twice. [desc fuel s i k]: k lies in the subtree of i, walked through the kids lists as reset walks it. *)
Definition up (s : st) (k : nat) : option nat := parent (getl s k).
Definition K1 (s : st) : Prop := forall p k, In k (kids (getl s p)) -> up s k = Some p /\ (k < length (lims s))%nat.
Definition K2 (s : st) : Prop := forall p, NoDup (kids (getl s p)).
Fixpoint desc (fuel : nat) (s : st) (i k : nat) : bool :=
  match fuel with O => false | S f => (k =? i)%nat || existsb (fun c => desc f s c k) (kids (getl s i)) end.
Definition same_tree (s s' : st) : Prop :=
  length (lims s') = length (lims s) /\ forall k, kids (getl s' k) = kids (getl s k) /\ parent (getl s' k) = parent (getl s k).
Definition tree (l l' : lim) : Prop := kids l' = kids l /\ parent l' = parent l.
Lemma tree_refl l : tree l l. Proof. split; reflexivity. Qed.
Lemma tree_trans a b c : tree a b -> tree b c -> tree a c.
Proof. unfold tree. intuition congruence. Qed.
(* [same_tree] is [lift tree] written out *)
Lemma same_tree_lift s s' : same_tree s s' <-> lift tree s s'.
Proof. reflexivity. Qed.
Lemma same_tree_trans a b c : same_tree a b -> same_tree b c -> same_tree a c.
Proof. rewrite !same_tree_lift. apply lift_trans, tree_trans. Qed.
Lemma same_tree_sym a b : same_tree a b -> same_tree b a.
Proof. intros [L G]. split; [congruence|]. intro k. destruct (G k). split; congruence. Qed.
(* one level of [desc], as a proposition *)
Lemma desc_S s f i k : desc (S f) s i k = true <-> k = i \/ exists c, In c (kids (getl s i)) /\ desc f s c k = true.
Proof. cbn [desc]. rewrite orb_true_iff, Nat.eqb_eq, existsb_exists. reflexivity. Qed.
Lemma desc_same s s' : same_tree s s' -> forall f i k, desc f s' i k = desc f s i k.
Proof.
  intros [_ G]. induction f as [|f IH]; intros i k; [reflexivity|]. cbn [desc]. f_equal. rewrite (proj1 (G i)).
  induction (kids (getl s i)) as [|c l IHl]; [reflexivity|]. cbn [existsb]. rewrite IH, IHl. reflexivity.
Qed.
Lemma K1_same s s' : same_tree s s' -> K1 s -> K1 s'.
Proof. intros [L G] H p k IN. rewrite (proj1 (G p)) in IN. destruct (H p k IN) as [A B]. unfold up in *. rewrite (proj2 (G k)). split; [exact A|lia]. Qed.
Lemma K2_same s s' : same_tree s s' -> K2 s -> K2 s'.
Proof. intros [_ G] H p. rewrite (proj1 (G p)). apply H. Qed.
Lemma WF_same s s' : same_tree s s' -> WF s -> WF s'.
Proof. apply (lift_WF tree). intros l l' H. apply H. Qed.

Fixpoint iter_up (j : nat) (s : st) (k : nat) : option nat :=
  match j with O => Some k | S j' => match up s k with Some p => iter_up j' s p | None => None end end.
Lemma iter_up_snoc s : forall j k c i, iter_up j s k = Some c -> up s c = Some i -> iter_up (S j) s k = Some i.
Proof.
  induction j as [|j IH]; intros k c i H U.
  - cbn in H. injection H as ->. cbn [iter_up]. rewrite U. reflexivity.
  - cbn [iter_up] in H. destruct (up s k) as [p|] eqn:E; [|discriminate]. specialize (IH p c i H U). cbn [iter_up]. rewrite E. exact IH.
Qed.
Lemma iter_up_le s : WF s -> forall j k c, iter_up j s k = Some c -> (c <= k)%nat.
Proof.
  intro W. induction j as [|j IH]; intros k c H.
  - cbn in H. injection H as ->. lia.
  - cbn [iter_up] in H. destruct (up s k) as [p|] eqn:E; [|discriminate]. specialize (IH p c H). specialize (W k p E). lia.
Qed.
Lemma desc_up s : K1 s -> forall f i k, desc f s i k = true -> exists j, iter_up j s k = Some i.
Proof.
  intro H1. induction f as [|f IH]; intros i k D; [discriminate|]. apply desc_S in D. destruct D as [->|(c & IN & D)]; [exists O; reflexivity|].
  destruct (IH c k D) as [j Hj]. destruct (H1 i c IN) as [U _]. exists (S j). eapply iter_up_snoc; eauto.
Qed.
(* two ancestors of k with the same parent: walk up from k in step *)
Lemma iter_up_same_parent s : WF s -> forall ja jb k ca cb i, iter_up ja s k = Some ca -> iter_up jb s k = Some cb ->
  up s ca = Some i -> up s cb = Some i -> ca = cb.
Proof.
  intro W. induction ja as [|ja IH]; intros [|jb] k ca cb i Ja Jb Ua Ub; cbn [iter_up] in Ja, Jb.
  - congruence.
  - injection Ja as <-. rewrite Ua in Jb. pose proof (iter_up_le s W jb i cb Jb). pose proof (W cb i Ub). lia.
  - injection Jb as <-. rewrite Ub in Ja. pose proof (iter_up_le s W ja i ca Ja). pose proof (W ca i Ua). lia.
  - destruct (up s k) as [p|]; [|discriminate]. exact (IH jb p ca cb i Ja Jb Ua Ub).
Qed.
Lemma desc_disjoint s : K1 s -> WF s -> forall f1 f2 c1 c2 i k, desc f1 s c1 k = true -> desc f2 s c2 k = true ->
  up s c1 = Some i -> up s c2 = Some i -> c1 = c2.
Proof.
  intros H1 W f1 f2 c1 c2 i k D1 D2. destruct (desc_up s H1 f1 c1 k D1) as [j1 J1]. destruct (desc_up s H1 f2 c2 k D2) as [j2 J2].
  exact (iter_up_same_parent s W j1 j2 k c1 c2 i J1 J2).
Qed.
Lemma desc_not_above s : K1 s -> WF s -> forall f c i, up s c = Some i -> desc f s c i = false.
Proof.
  intros H1 W f c i U. destruct (desc f s c i) eqn:D; [|reflexivity]. exfalso.
  destruct (desc_up s H1 f c i D) as [j J]. pose proof (iter_up_le s W j i c J). pose proof (W c i U). lia.
Qed.

Lemma reset_same_tree fuel s i : same_tree s (reset fuel s i).
Proof. apply same_tree_lift, (lift_reset tree tree_refl tree_trans). intro l. split; reflexivity. Qed.

Lemma reset_spec : forall fuel s i, K1 s -> K2 s -> WF s ->
  forall k, getl (reset fuel s i) k = if desc fuel s i k then reset_one (getl s k) else getl s k.
Proof.
  induction fuel as [|f IH]; intros s i H1 H2 W k; [reflexivity|]. cbn [reset desc].
  (* the fold over the children, from any state with the same tree *)
  assert (FL : forall l s0, same_tree s s0 -> NoDup l -> (forall c, In c l -> up s c = Some i) ->
               forall k, getl (fold_left (reset f) l s0) k = if existsb (fun c => desc f s c k) l then reset_one (getl s0 k) else getl s0 k).
  { induction l as [|c l IHl]; intros s0 ST ND UP k0; cbn [fold_left existsb]; [reflexivity|].
    inversion ND as [|? ? NI ND']; subst.
    assert (ST1 : same_tree s (reset f s0 c)) by (eapply same_tree_trans; [exact ST|apply reset_same_tree]).
    rewrite (IHl (reset f s0 c) ST1 ND' (fun c' IN => UP c' (or_intror IN)) k0).
    rewrite (IH s0 c (K1_same s s0 ST H1) (K2_same s s0 ST H2) (WF_same s s0 ST W) k0). rewrite (desc_same s s0 ST f c k0).
    destruct (desc f s c k0) eqn:D1; cbn [orb].
    - destruct (existsb (fun c' => desc f s c' k0) l) eqn:EX; [|reflexivity]. exfalso.
      apply existsb_exists in EX. destruct EX as (c' & IN & D2).
      assert (c = c') by (apply (desc_disjoint s H1 W f f c c' i k0 D1 D2); [apply UP; left; reflexivity|apply UP; right; exact IN]). subst c'. contradiction.
    - reflexivity. }
  assert (ST : same_tree s (upd s i reset_one)) by (apply same_tree_lift, (lift_upd tree tree_refl); intro l; split; reflexivity).
  assert (KS : forall c, In c (kids (getl s i)) -> up s c = Some i) by (intros c IN; apply (H1 i c IN)).
  rewrite (FL (kids (getl s i)) (upd s i reset_one) ST (H2 i) KS), getl_upd_dflt by reflexivity.
  destruct (Nat.eqb_spec k i) as [->|NE]; cbn [orb]; [|reflexivity].
  (* the node itself lies in the subtree of none of its children *)
  destruct (existsb (fun c => desc f s c i) (kids (getl s i))) eqn:E; [|reflexivity]. apply existsb_exists in E. destruct E as (c & IN & D).
  rewrite (desc_not_above s H1 W f c i (KS c IN)) in D. discriminate.
Qed.

Theorem tick_last_used s : running s = true -> K1 s -> K2 s -> WF s ->
  forall k, desc (S (length (lims s))) s 0 k = true -> last (getl (fst (tick s)) k) = used (getl s k).
Proof.
  intros R H1 H2 W k D. unfold tick. rewrite R. cbn [negb].
  pose proof (serve_spent (waiting s) (reset (S (length (lims s))) s 0) [] []) as [_ G].
  destruct (fold_left serve (waiting s) _) as [[s1 rem] out]. cbn [fst] in *.
  change (getl {| lims := lims s1; waiting := rem; running := true |} k) with (getl s1 k).
  destruct (G k) as (_ & _ & -> & _). rewrite (reset_spec _ s 0 H1 H2 W k), D. reflexivity.
Qed.

Definition KK (s : st) : Prop := K1 s /\ K2 s.
(* [prune]: the parent is kept and the kids list only loses members. Every operation but New prunes every limiter, and K1, K2 survive pruning. *)
Definition prune (l l' : lim) : Prop := parent l' = parent l /\ incl (kids l') (kids l) /\ (NoDup (kids l) -> NoDup (kids l')).
Lemma prune_same l l' : kids l' = kids l -> parent l' = parent l -> prune l l'.
Proof. intros K P. unfold prune. rewrite K. split; [exact P|]. split; [apply incl_refl|auto]. Qed.
Lemma prune_trans a b c : prune a b -> prune b c -> prune a c.
Proof. intros (P1 & I1 & N1) (P2 & I2 & N2). split; [congruence|]. split; [eapply incl_tran; eassumption|auto]. Qed.
Lemma prune_filter l g : prune l (with_kids (filter g (kids l)) l).
Proof. split; [reflexivity|]. split; [apply incl_filter|apply NoDup_filter]. Qed.
Lemma KK_prune s s' : lift prune s s' -> KK s -> KK s'.
Proof.
  intros [L G] [A B]. split.
  - intros p k IN. destruct (G p) as (_ & I & _). destruct (A p k (I k IN)) as [U Lk]. unfold up in *. rewrite (proj1 (G k)). split; [exact U|lia].
  - intro p. apply (G p), B.
Qed.
Lemma KK_new s p c : KK s -> KK (new_child s p c).
Proof.
  intros [A B]. destruct (closed (getl s p)) eqn:Cl; [unfold new_child; rewrite Cl; split; assumption|].
  pose proof (open_in_range s p Cl) as Hp. destruct (new_child_spec s p c Cl) as (L & _ & G). cbv zeta in *.
  assert (UP : forall k, (k < length (lims s))%nat -> up (new_child s p c) k = up s k).
  { intros k Hk. unfold up. destruct (G k) as [(-> & ->)|[(_ & _ & ->)|[(-> & _)|(Lk & _)]]]; [reflexivity|reflexivity|lia|lia]. }
  assert (OLD : forall q k, In k (kids (getl s q)) -> up (new_child s p c) k = Some q /\ (k < length (lims (new_child s p c)))%nat).
  { intros q k IN. destruct (A q k IN) as [U Lk]. rewrite L, (UP k Lk). split; [exact U|lia]. }
  split.
  - intros q k. destruct (G q) as [(-> & ->)|[(_ & _ & ->)|[(_ & ->)|(_ & ->)]]]; [|apply OLD|intros []|intros []].
    cbn [kids with_kids]. rewrite in_app_iff. intros [IN|[<-|[]]]; [apply OLD, IN|]. split; [|lia].
    unfold up. destruct (G (length (lims s))) as [(E & _)|[(_ & Lk & _)|[(_ & ->)|(Lk & _)]]]; [lia|lia|reflexivity|lia].
  - intro q. destruct (G q) as [(-> & ->)|[(_ & _ & ->)|[(_ & ->)|(_ & ->)]]]; [|apply B|constructor|constructor].
    cbn [kids with_kids]. apply NoDup_snoc; [apply B|]. intro IN. destruct (A p _ IN) as [_ LL]. lia.
Qed.
Lemma step_prune s o : match o with ONew _ _ => True | _ => lift prune s (fst (step s o)) end.
Proof. apply (lift_step prune); try exact prune_trans; try exact prune_filter; intros; apply prune_same; reflexivity. Qed.
Lemma KK_step s o : KK s -> KK (fst (step s o)).
Proof. pose proof (step_prune s o) as T. destruct o; try apply (KK_prune _ _ T). apply KK_new. Qed.
Lemma KK_init c : KK (init c).
Proof.
  split.
  - intros p k IN. unfold init, getl in IN. cbn [lims] in IN. destruct p as [|[|p]]; cbn in IN; destruct IN.
  - intro p. unfold init, getl. cbn [lims]. destruct p as [|[|p]]; cbn; constructor.
Qed.
Theorem KK_final ops s : KK s -> KK (final s ops).
Proof. apply (fold_left_inv KK). intros s0 o. apply KK_step. Qed.

Theorem last_used_in_every_history rootcap ops :
  let s := final (init rootcap) ops in running s = true ->
  forall k, desc (S (length (lims s))) s 0 k = true -> last (getl (fst (tick s)) k) = used (getl s k).
Proof.
  intros s R k D. destruct (KK_final ops (init rootcap) (KK_init rootcap)) as [A B].
  apply tick_last_used; try assumption. apply WF_final, Inv_init.
Qed.
(* [att]: attached to the root through the kids lists; the fuel of reset's walk is enough to reach every such limiter *)
Inductive att (s : st) : nat -> Prop := att_root : att s 0%nat | att_kid p k : att s p -> In k (kids (getl s p)) -> att s k.
Lemma desc_mono s : forall f f' i k, (f <= f')%nat -> desc f s i k = true -> desc f' s i k = true.
Proof.
  induction f as [|f IH]; intros f' i k LE D; [discriminate|]. destruct f' as [|f']; [lia|]. apply desc_S. apply desc_S in D.
  destruct D as [E|(c & IN & D)]; [left; exact E|right]. exists c. split; [exact IN|]. apply (IH f'); [lia|exact D].
Qed.
Lemma desc_step s : forall f a p k, desc f s a p = true -> In k (kids (getl s p)) -> desc (S f) s a k = true.
Proof.
  induction f as [|f IH]; intros a p k D IN; [discriminate|]. apply desc_S. right. apply desc_S in D. destruct D as [->|(c & INc & D)].
  - exists k. split; [exact IN|]. apply desc_S. left. reflexivity.
  - exists c. split; [exact INc|]. apply (IH c p k D IN).
Qed.
Lemma att_desc s : K1 s -> WF s -> forall k, att s k -> desc (S k) s 0 k = true.
Proof.
  intros H1 W k A. induction A as [|p k A D IN]; [reflexivity|]. destruct (H1 p k IN) as [U _]. pose proof (W k p U).
  apply (desc_mono s (S (S p))); [lia|]. apply (desc_step s (S p) 0 p k D IN).
Qed.
Theorem attached_is_reached s : K1 s -> WF s -> forall k, att s k -> (k < length (lims s))%nat -> desc (S (length (lims s))) s 0 k = true.
Proof. intros H1 W k A L. apply (desc_mono s (S k)); [lia|]. apply att_desc; assumption. Qed.
