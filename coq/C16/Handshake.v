(* C16 — the Close / ticker-goroutine hand-shake as a finite transition system. Two goroutines (the caller of root Close, the
   ticker goroutine), the controller's mutex, the unbuffered done channel; a tick is always available (the hottest ticker).
   [fixed = true] is the order in rate/limiter.go now (Lock; mark closed; Unlock; done <- true); [fixed = false] the order
   before the repair (Lock; mark closed; done <- true; Unlock). At most 4*6*3 = 72 states: reachability, absence of stuck
   states and possible completion are decided by kernel computation over the whole state space. *)
From Coq Require Import List Bool.
Import ListNotations.

Inductive cpc := CLock | CSend | CUnlock | CDone.
Inductive tpc := TSelect | TTickLock | TTickUnlock | TDoneLock | TDoneUnlock | TExit.
Inductive holder := Free | ByC | ByT.
Record st := { c : cpc; t : tpc; lk : holder }.
Definition eqst (a b : st) : bool :=
  match c a, c b with CLock, CLock | CSend, CSend | CUnlock, CUnlock | CDone, CDone => true | _, _ => false end &&
  match t a, t b with TSelect, TSelect | TTickLock, TTickLock | TTickUnlock, TTickUnlock | TDoneLock, TDoneLock | TDoneUnlock, TDoneUnlock | TExit, TExit => true | _, _ => false end &&
  match lk a, lk b with Free, Free | ByC, ByC | ByT, ByT => true | _, _ => false end.

(* fixed = true: Close releases the lock before sending on done *)
Definition succs (fixed : bool) (s : st) : list st :=
  (* closer moves *)
  (match c s with
   | CLock => match lk s with Free => [{| c := if fixed then CUnlock else CSend; t := t s; lk := ByC |}] | _ => [] end
   | CSend => (* rendezvous: receiver must be at select *)
     match t s with TSelect => [{| c := if fixed then CDone else CUnlock; t := TDoneLock; lk := lk s |}] | _ => [] end
   | CUnlock => [{| c := if fixed then CSend else CDone; t := t s; lk := Free |}]
   | CDone => []
   end) ++
  (* ticker moves: a tick is always available *)
  (match t s with
   | TSelect => [{| c := c s; t := TTickLock; lk := lk s |}]
   | TTickLock => match lk s with Free => [{| c := c s; t := TTickUnlock; lk := ByT |}] | _ => [] end
   | TTickUnlock => [{| c := c s; t := TSelect; lk := Free |}]
   | TDoneLock => match lk s with Free => [{| c := c s; t := TDoneUnlock; lk := ByT |}] | _ => [] end
   | TDoneUnlock => [{| c := c s; t := TExit; lk := Free |}]
   | TExit => []
   end).

Definition mem (s : st) (l : list st) := existsb (eqst s) l.
Fixpoint add_all (new seen : list st) : list st := match new with [] => seen | x :: r => if mem x seen then add_all r seen else add_all r (seen ++ [x]) end.
Fixpoint reach (fuel : nat) (fixed : bool) (seen : list st) : list st :=
  match fuel with O => seen | S f => reach f fixed (add_all (flat_map (succs fixed) seen) seen) end.
Definition init := {| c := CLock; t := TSelect; lk := Free |}.
Definition final (s : st) := match c s, t s with CDone, TExit => true | _, _ => false end.
Definition stuck (fixed : bool) (s : st) := match succs fixed s with [] => negb (final s) | _ => false end.
(* 4*6*3 = 72 states at most; 72 rounds reach a fixpoint *)
Definition reachable (fixed : bool) := reach 72 fixed [init].

Example deadlock_reachable_before_repair : existsb (stuck false) (reachable false) = true.
Proof. vm_compute. reflexivity. Qed.
Example deadlock_state : filter (stuck false) (reachable false) = [{| c := CSend; t := TTickLock; lk := ByC |}].
Proof. vm_compute. reflexivity. Qed.
Theorem no_deadlock_after_repair : forallb (fun s => negb (stuck true s)) (reachable true) = true.
Proof. vm_compute. reflexivity. Qed.
(* and Close can always still complete: from every reachable state of the repaired protocol a final state is reachable *)
Theorem close_can_complete : forallb (fun s => existsb final (reach 72 true [s])) (reachable true) = true.
Proof. vm_compute. reflexivity. Qed.
(* `reachable true` is an inductive invariant: contains init and is closed under the step relation *)
Theorem reachable_closed : mem init (reachable true) = true /\ forallb (fun s => forallb (fun s' => mem s' (reachable true)) (succs true s)) (reachable true) = true.
Proof. vm_compute. split; reflexivity. Qed.

(* lifting to every schedule: the states reachable by any finite sequence of steps *)
Inductive reach_rel (fixed : bool) : st -> Prop :=
| reach_init : reach_rel fixed init
| reach_step s s' : reach_rel fixed s -> In s' (succs fixed s) -> reach_rel fixed s'.

Lemma eqst_eq a b : eqst a b = true -> a = b.
Proof.
  destruct a as [ca ta la], b as [cb tb lb]. unfold eqst. cbn [c t lk]. intro H.
  apply andb_prop in H. destruct H as [H H3]. apply andb_prop in H. destruct H as [H1 H2].
  f_equal; [destruct ca, cb|destruct ta, tb|destruct la, lb]; (reflexivity || discriminate).
Qed.
Lemma eqst_refl a : eqst a a = true.
Proof. destruct a as [ca ta la]. destruct ca, ta, la; reflexivity. Qed.
Lemma mem_In s l : mem s l = true <-> In s l.
Proof.
  unfold mem. rewrite existsb_exists. split.
  - intros (x & Hx & E). apply eqst_eq in E. subst. exact Hx.
  - intro H. exists s. split; [exact H|apply eqst_refl].
Qed.

Theorem every_schedule_stays_in_reachable s : reach_rel true s -> In s (reachable true).
Proof.
  destruct reachable_closed as [Hi Hc]. induction 1 as [|s s' _ IH Hs].
  - exact (proj1 (mem_In _ _) Hi).
  - rewrite forallb_forall in Hc. specialize (Hc s IH). rewrite forallb_forall in Hc. exact (proj1 (mem_In _ _) (Hc s' Hs)).
Qed.
Theorem never_stuck s : reach_rel true s -> stuck true s = false.
Proof.
  intro H. apply every_schedule_stays_in_reachable in H. pose proof no_deadlock_after_repair as N.
  rewrite forallb_forall in N. specialize (N s H). apply negb_true_iff in N. exact N.
Qed.
Theorem can_always_complete s : reach_rel true s -> existsb final (reach 72 true [s]) = true.
Proof.
  intro H. apply every_schedule_stays_in_reachable in H. pose proof close_can_complete as N.
  rewrite forallb_forall in N. exact (N s H).
Qed.
Theorem stuck_before_repair : exists s, reach_rel false s /\ stuck false s = true.
Proof.
  exists {| c := CSend; t := TTickLock; lk := ByC |}. split; [|reflexivity].
  (* Close takes the lock; the ticker goroutine chooses the tick case; now Close waits to send and the ticker waits for the lock *)
  eapply reach_step; [eapply reach_step; [apply reach_init|]|]; cbn; [left; reflexivity|]. cbn. right. left. reflexivity.
Qed.
