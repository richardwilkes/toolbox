(* C12 — property theorems only. Each is closed in a line by a lemma of Proofs.v and followed by Print Assumptions.
   Files are indexed 0 = the log path, k = backup path-k; contents are lists of runs (write id, byte count); the stream is
   path-MaxBackups ... path-1, path read in that order. All statements are for every history of writes, closes and syncs -
   hence for every interleaving of writers whose Write calls are atomic (the rotator's mutex, trusted and sampled). *)
From Coq Require Import ZArith List Bool Arith.
From Verif Require Import C12.Model C12.Proofs.
Import ListNotations.
Open Scope Z_scope.

(* Every Write returns after at most one rotation (fuel 2 suffices for every size, also sizes above MaxSize), and this is the state it leaves *)
Theorem C12_write_returns : forall maxSize maxBackups r id sz fuel, (2 <= fuel)%nat ->
  write maxSize maxBackups fuel r id sz =
  WOk (append (if must_rotate maxSize r sz then reopen (rotate maxBackups (reopen r)) else reopen r) id sz).
Proof. exact write_result. Qed.
Print Assumptions C12_write_returns.

(* so the model's run never reports a write that does not return: it is the list of file maps of the successive states *)
Theorem C12_run_total : forall maxSize maxBackups ops r,
  run maxSize maxBackups (Some r) ops = map (fun r' => Some (files r')) (states maxSize maxBackups r ops).
Proof. exact run_states. Qed.
Print Assumptions C12_run_total.

(* The retained files, oldest first, are a suffix of (what was there) ++ (everything written), run by run: nothing duplicated,
   reordered or torn, whatever the sizes, the configuration, the closes and re-opens *)
Theorem C12_stream_is_suffix_of_everything_written : forall maxSize maxBackups ops r,
  exists dropped, stream maxBackups r ++ written ops = dropped ++ stream maxBackups (final maxSize maxBackups r ops).
Proof. exact stream_is_suffix. Qed.
Print Assumptions C12_stream_is_suffix_of_everything_written.

(* ... and one operation loses at most the oldest file; nothing at all while the oldest slot is still empty *)
Theorem C12_only_the_oldest_file_is_dropped : forall maxSize maxBackups r o,
  exists gone, stream maxBackups r ++ written [o] = gone ++ stream maxBackups (next maxSize maxBackups r o) /\ (gone = [] \/ gone = oldest maxBackups r).
Proof. exact next_stream. Qed.
Print Assumptions C12_only_the_oldest_file_is_dropped.
Theorem C12_nothing_lost_while_slot_free : forall maxSize maxBackups r o, oldest maxBackups r = [] ->
  stream maxBackups (next maxSize maxBackups r o) = stream maxBackups r ++ written [o].
Proof. exact nothing_lost_while_slot_free. Qed.
Print Assumptions C12_nothing_lost_while_slot_free.

(* A write lands whole at the end of the current log file *)
Theorem C12_write_lands_whole_in_current_file : forall maxSize maxBackups r id sz,
  exists c, flook (files (next maxSize maxBackups r (OWrite id sz))) 0%nat = Some (c ++ body id sz).
Proof. exact write_lands_whole. Qed.
Print Assumptions C12_write_lands_whole_in_current_file.

Theorem C12_close_and_sync_change_no_file : forall maxSize maxBackups r,
  files (next maxSize maxBackups r OClose) = files r /\ files (next maxSize maxBackups r OSync) = files r.
Proof. exact close_sync_keep_files. Qed.
Print Assumptions C12_close_and_sync_change_no_file.

(* Limits: starting from files within the limits, after any history every file has index <= MaxBackups and is within MaxSize
   unless it consists of one single write *)
Theorem C12_limits_hold : forall maxSize maxBackups pre ops, pre_ok maxSize maxBackups pre -> sizes_ok ops ->
  Inv maxSize maxBackups (final maxSize maxBackups (start pre) ops).
Proof. intros maxSize maxBackups pre ops Hp Hs. exact (Inv_final maxSize maxBackups ops (start pre) (Inv_start maxSize maxBackups pre Hp) Hs). Qed.
Print Assumptions C12_limits_hold.

Module NonVacuous.
  Definition pre : fs := [(0%nat, [(201, 3)]); (2%nat, [(202, 9)])].
  Definition ops := [OWrite 1 4; OWrite 2 4; OClose; OWrite 3 25; OWrite 4 0; OWrite 5 1; OSync; OWrite 6 10; OWrite 7 1].
  Example pre_within_limits : pre_ok 10 2 pre.
  Proof.
    intros k c H. destruct k as [|[|[|k]]]; vm_compute in H; try discriminate; injection H as <-;
      (split; [repeat constructor|]); (split; [right; cbn; repeat constructor|repeat constructor]).
  Qed.
  Example sizes : sizes_ok ops. Proof. repeat constructor; discriminate. Qed.
  Example history : run 10 2 (Some (start pre)) ops =
    [ Some [(0%nat, [(201, 3); (1, 4)]); (2%nat, [(202, 9)])];
      Some [(0%nat, [(2, 4)]); (1%nat, [(201, 3); (1, 4)])];                         (* rotation: path-2 (202) dropped *)
      Some [(0%nat, [(2, 4)]); (1%nat, [(201, 3); (1, 4)])];
      Some [(0%nat, [(3, 25)]); (1%nat, [(2, 4)]); (2%nat, [(201, 3); (1, 4)])];     (* oversized write alone in a fresh file *)
      Some [(0%nat, []); (1%nat, [(3, 25)]); (2%nat, [(2, 4)])];                     (* empty write on an oversized file rotates *)
      Some [(0%nat, [(5, 1)]); (1%nat, [(3, 25)]); (2%nat, [(2, 4)])];
      Some [(0%nat, [(5, 1)]); (1%nat, [(3, 25)]); (2%nat, [(2, 4)])];
      Some [(0%nat, [(6, 10)]); (1%nat, [(5, 1)]); (2%nat, [(3, 25)])];
      Some [(0%nat, [(7, 1)]); (1%nat, [(6, 10)]); (2%nat, [(5, 1)])] ].
  Proof. vm_compute. reflexivity. Qed.
End NonVacuous.
