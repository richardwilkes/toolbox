(* C12 — a rotation in closed form on the file map (flook_rotate); the retained stream compared file by file (stream_from_snoc0, stream_from_shift). *)
From Coq Require Import ZArith List Bool Lia.
From Verif Require Import common.ListFacts C12.Model.
Import ListNotations.
Open Scope Z_scope.

Lemma flook_cons k c f k' : flook ((k, c) :: f) k' = if (k =? k')%nat then Some c else flook f k'.
Proof. unfold flook. cbn. destruct (k =? k')%nat; reflexivity. Qed.
Lemma flook_fdel f k k' : flook (fdel f k) k' = if (k' =? k)%nat then None else flook f k'.
Proof.
  induction f as [|[a c] f IH]; [cbn; destruct (k' =? k)%nat; reflexivity|].
  cbn [fdel filter fst]. destruct (Nat.eqb_spec a k) as [->|Hak]; cbn [negb].
  - fold (fdel f k). rewrite IH. rewrite flook_cons. destruct (Nat.eqb_spec k' k) as [E|H]; [reflexivity|].
    rewrite (proj2 (Nat.eqb_neq k k')) by congruence. reflexivity.
  - fold (fdel f k). rewrite !flook_cons, IH. destruct (Nat.eqb_spec a k') as [E|H]; [|reflexivity].
    rewrite (proj2 (Nat.eqb_neq k' k)) by congruence. reflexivity.
Qed.
Lemma flook_fput f k c k' : flook (fput f k c) k' = if (k' =? k)%nat then Some c else flook f k'.
Proof.
  unfold fput. rewrite flook_cons, flook_fdel. rewrite (Nat.eqb_sym k k'). destruct (k' =? k)%nat; reflexivity.
Qed.
(* a rename onto a free slot (a missing source is ignored, and then both slots read as empty) *)
Lemma flook_frename f a b k : flook f b = None ->
  flook (frename f a b) k = if (k =? b)%nat then flook f a else if (k =? a)%nat then None else flook f k.
Proof.
  intro Hb. unfold frename. destruct (flook f a) as [c|] eqn:E; [rewrite flook_fput, flook_fdel; reflexivity|].
  destruct (Nat.eqb_spec k b) as [->|_]; [exact Hb|]. destruct (Nat.eqb_spec k a) as [->|_]; [exact E|reflexivity].
Qed.

(* the chain on a map whose top slot i is free: every file up to i moves one slot up, slot 0 is left empty *)
Lemma flook_rename_chain : forall i f k, flook f i = None ->
  flook (rename_chain i f) k = if (k =? 0)%nat then None else if (k <=? i)%nat then flook f (k - 1)%nat else flook f k.
Proof.
  induction i as [|j IH]; intros f k Hi; cbn [rename_chain]. { destruct k; [exact Hi|reflexivity]. }
  assert (Hj : flook (frename f j (S j)) j = None).
  { rewrite flook_frename, Nat.eqb_refl by exact Hi. destruct (Nat.eqb_spec j (S j)); [lia|reflexivity]. }
  rewrite (IH _ k Hj), !flook_frename by exact Hi.
  destruct (Nat.eqb_spec k 0); [reflexivity|]. destruct (Nat.leb_spec k j), (Nat.leb_spec k (S j)); try lia.
  - destruct (Nat.eqb_spec (k - 1) (S j)); [lia|]. destruct (Nat.eqb_spec (k - 1) j); [lia|reflexivity].
  - destruct (Nat.eqb_spec k (S j)); [f_equal|]; lia.
  - destruct (Nat.eqb_spec k (S j)); [lia|]. destruct (Nat.eqb_spec k j); [lia|reflexivity].
Qed.

Definition file (f : fs) (k : nat) : content := match flook f k with Some c => c | None => [] end.
Lemma stream_from_S n f : stream_from (S n) f = file f (S n) ++ stream_from n f.
Proof. reflexivity. Qed.
Lemma stream_from_0 f : stream_from 0 f = file f 0. Proof. reflexivity. Qed.
Lemma stream_from_snoc0 : forall n f g x, (forall k, (1 <= k <= n)%nat -> file g k = file f k) -> file g 0%nat = file f 0%nat ++ x ->
  stream_from n g = stream_from n f ++ x.
Proof.
  induction n as [|n IH]; intros f g x H H0; [exact H0|].
  rewrite !stream_from_S, H by lia. rewrite (IH f g x); [apply app_assoc|intros; apply H; lia|exact H0].
Qed.
Lemma stream_from_ext n f g : (forall k, file g k = file f k) -> stream_from n g = stream_from n f.
Proof. intro H. rewrite (stream_from_snoc0 n f g []), app_nil_r; [reflexivity|intros; apply H|rewrite app_nil_r; apply H]. Qed.
Lemma stream_from_shift : forall n f g, (forall k, (1 <= k <= n)%nat -> file g k = file f (k - 1)%nat) -> file g 0%nat = [] ->
  stream_from n f = file f n ++ stream_from n g.
Proof.
  induction n as [|n IH]; intros f g H H0.
  - rewrite !stream_from_0, H0, app_nil_r. reflexivity.
  - rewrite !stream_from_S, (H (S n)), Nat.sub_succ, Nat.sub_0_r by lia. rewrite (IH f g); [reflexivity|intros; apply H; lia|exact H0].
Qed.

Section R.
Variables (maxSize : Z) (maxBackups : nat).
Notation rotate := (rotate maxBackups).
Notation write := (write maxSize maxBackups).
Definition stream (r : rot) : content := stream_from maxBackups (files r).
Definition oldest (r : rot) : content := file (files r) maxBackups.

Lemma flook_rotate r k : flook (files (rotate r)) k =
  if (k =? 0)%nat then None else if (k <=? maxBackups)%nat then flook (files r) (k - 1)%nat else flook (files r) k.
Proof.
  unfold Model.rotate. cbn [files]. destruct maxBackups as [|b]; [rewrite flook_fdel; destruct k; reflexivity|].
  rewrite flook_rename_chain by (rewrite flook_fdel, Nat.eqb_refl; reflexivity).
  destruct (Nat.eqb_spec k 0); [reflexivity|]. destruct (Nat.leb_spec k (S b)); rewrite flook_fdel.
  - destruct (Nat.eqb_spec (k - 1) (S b)); [lia|reflexivity].
  - destruct (Nat.eqb_spec k (S b)); [lia|reflexivity].
Qed.
Lemma stream_rotate r : stream r = oldest r ++ stream (rotate r).
Proof.
  apply stream_from_shift; unfold file; [intros k Hk|]; rewrite flook_rotate; [|reflexivity].
  destruct (Nat.eqb_spec k 0); [lia|]. destruct (Nat.leb_spec k maxBackups); [reflexivity|lia].
Qed.

Lemma file_reopen r k : file (files (reopen r)) k = file (files r) k.
Proof.
  unfold reopen. destruct (is_open r); [reflexivity|]. destruct (flook (files r) 0%nat) as [c|] eqn:E; [reflexivity|].
  unfold file. cbn [files]. rewrite flook_fput. destruct (Nat.eqb_spec k 0) as [->|H]; [rewrite E|]; reflexivity.
Qed.
Lemma stream_reopen r : stream (reopen r) = stream r.
Proof. apply stream_from_ext, file_reopen. Qed.

Definition body (id sz : Z) : content := if sz =? 0 then [] else [(id, sz)].
Lemma flook_append r id sz k : flook (files (append r id sz)) k =
  if (k =? 0)%nat then Some (file (files r) 0%nat ++ body id sz) else flook (files r) k.
Proof.
  unfold append, file, body. cbn [files]. rewrite flook_fput. destruct (k =? 0)%nat; [|reflexivity].
  destruct (sz =? 0); [rewrite app_nil_r|]; reflexivity.
Qed.
Lemma stream_append r id sz : stream (append r id sz) = stream r ++ body id sz.
Proof. apply stream_from_snoc0; [intros k Hk|]; unfold file at 1; rewrite flook_append; [destruct k; [lia|]|]; reflexivity. Qed.

Definition must_rotate (r : rot) (sz : Z) : bool := (0 <? size (reopen r)) && (maxSize <? size (reopen r) + sz).
Lemma size_after_rotate r : size (reopen (rotate r)) = 0.
Proof. unfold reopen. cbn [is_open Model.rotate]. fold (rotate r). rewrite flook_rotate. reflexivity. Qed.
Theorem write_result r id sz fuel : (2 <= fuel)%nat ->
  write fuel r id sz = WOk (append (if must_rotate r sz then reopen (rotate (reopen r)) else reopen r) id sz).
Proof.
  intro HF. destruct fuel as [|[|fuel]]; try lia. unfold must_rotate. cbn [Model.write].
  destruct ((0 <? size (reopen r)) && (maxSize <? size (reopen r) + sz)); [|reflexivity].
  rewrite size_after_rotate. reflexivity.
Qed.
End R.

Section H.
Variables (maxSize : Z) (maxBackups : nat).
Notation stream := (stream maxBackups).
Notation oldest := (oldest maxBackups).
Notation must_rotate := (must_rotate maxSize).

Definition next (r : rot) (o : op) : rot :=
  match o with
  | OClose => close r
  | OSync => r
  | OWrite id sz => append (if must_rotate r sz then reopen (rotate maxBackups (reopen r)) else reopen r) id sz
  end.
Lemma step_total r o : step maxSize maxBackups r o = Some (next r o).
Proof. destruct o as [id sz| |]; try reflexivity. unfold step. rewrite write_result by (unfold FUEL; lia). reflexivity. Qed.

Fixpoint states (r : rot) (ops : list op) : list rot := match ops with [] => [] | o :: rest => next r o :: states (next r o) rest end.
Definition final (r : rot) (ops : list op) : rot := fold_left next ops r.
Lemma run_states : forall ops r, run maxSize maxBackups (Some r) ops = map (fun r' => Some (files r')) (states r ops).
Proof. induction ops as [|o ops IH]; intro r; [reflexivity|]. cbn [run states map]. rewrite step_total. f_equal. apply IH. Qed.
Lemma states_final : forall ops r, last (states r ops) r = final r ops.
Proof.
  assert (last_cons : forall (l : list rot) x d, last (x :: l) d = last l x).
  { induction l as [|y l IH]; intros x d; [reflexivity|]. change (last (x :: y :: l) d) with (last (y :: l) d). rewrite !IH. reflexivity. }
  induction ops as [|o ops IH]; intro r; [reflexivity|]. cbn [states final fold_left].
  change (fold_left next ops (next r o)) with (final (next r o) ops). rewrite <- IH. apply last_cons.
Qed.

Definition written (ops : list op) : content := flat_map (fun o => match o with OWrite id sz => body id sz | _ => [] end) ops.

Lemma next_stream r o : exists gone, stream r ++ written [o] = gone ++ stream (next r o) /\ (gone = [] \/ gone = oldest r).
Proof.
  destruct o as [id sz| |]; cbn [written flat_map next]; rewrite app_nil_r; [|exists []; auto..].
  rewrite stream_append. destruct (must_rotate r sz); rewrite stream_reopen.
  - exists (oldest r). rewrite <- (stream_reopen maxBackups r), (stream_rotate maxBackups (reopen r)), <- app_assoc.
    unfold oldest. rewrite file_reopen. auto.
  - exists []. auto.
Qed.

Theorem stream_is_suffix : forall ops r, exists dropped, stream r ++ written ops = dropped ++ stream (final r ops).
Proof.
  intros ops r. apply (fold_left_ind next (fun l r' => exists dropped, stream r ++ written l = dropped ++ stream r')).
  - exists []. apply app_nil_r.
  - intros l o r' (d & E). destruct (next_stream r' o) as (gone & E' & _). exists (d ++ gone).
    unfold written in *. rewrite flat_map_app, app_assoc, E, <- !app_assoc, E'. reflexivity.
Qed.

Theorem nothing_lost_while_slot_free r o : oldest r = [] -> stream (next r o) = stream r ++ written [o].
Proof. intro H. destruct (next_stream r o) as (gone & E & [->| ->]); [|rewrite H in E]; cbn [app] in E; symmetry; exact E. Qed.

Theorem write_lands_whole r id sz : exists c, flook (files (next r (OWrite id sz))) 0%nat = Some (c ++ body id sz).
Proof. eexists. cbn [next]. rewrite flook_append. reflexivity. Qed.
Theorem close_sync_keep_files r : files (next r OClose) = files r /\ files (next r OSync) = files r.
Proof. split; reflexivity. Qed.

Definition ok_file (c : content) : Prop := (fsize c <= maxSize \/ (length c <= 1)%nat) /\ Forall (fun p => 0 < snd p) c.
Definition Inv (r : rot) : Prop :=
  (forall k c, flook (files r) k = Some c -> (k <= maxBackups)%nat /\ ok_file c) /\
  (is_open r = true -> exists c, flook (files r) 0%nat = Some c /\ size r = fsize c).

Lemma fsize_app c d : fsize (c ++ d) = fsize c + fsize d.
Proof. unfold fsize. induction c as [|p c IH]; cbn [app fold_right]; [reflexivity|]. rewrite IH. lia. Qed.
Lemma fsize_pos c : Forall (fun p => 0 < snd p) c -> 0 <= fsize c /\ (fsize c <= 0 -> c = []).
Proof.
  unfold fsize. induction 1 as [|p c Hp _ [IH1 IH2]]; cbn [fold_right]; [split; [lia|reflexivity]|]. split; [lia|]. intro. lia.
Qed.

Lemma Inv_reopen r : Inv r -> Inv (reopen r) /\ is_open (reopen r) = true.
Proof.
  intros [I1 I2]. unfold reopen. destruct (is_open r) eqn:O; [split; [split; [exact I1|intros _; apply I2; reflexivity]|exact O]|].
  destruct (flook (files r) 0%nat) as [c|] eqn:E.
  - split; [|reflexivity]. split; cbn [files is_open size]; [exact I1|]. intros _. exists c. split; [exact E|reflexivity].
  - split; [|reflexivity]. split; cbn [files is_open size].
    + intros k c. rewrite flook_fput. destruct (Nat.eqb_spec k 0) as [->|H]; [|apply I1].
      intros [= <-]. split; [lia|]. split; [right; cbn; lia|constructor].
    + intros _. exists []. rewrite flook_fput. split; reflexivity.
Qed.

Lemma Inv_rotate r : Inv r -> Inv (rotate maxBackups r).
Proof.
  intros [I1 _]. split; [|cbn; discriminate]. intros k c. rewrite flook_rotate. destruct (Nat.eqb_spec k 0); [discriminate|].
  destruct (Nat.leb_spec k maxBackups) as [Hk|Hk]; intro H; destruct (I1 _ _ H); [auto|lia].
Qed.

Lemma Inv_append r id sz : Inv r -> is_open r = true -> 0 <= sz -> ((0 <? size r) && (maxSize <? size r + sz) = false) -> Inv (append r id sz).
Proof.
  intros [I1 I2] O Hsz Hno. destruct (I2 O) as (c0 & E0 & S0). destruct (I1 _ _ E0) as [_ [Hok Hpos]].
  split; unfold append; cbn [files is_open size].
  - intros k c. rewrite flook_fput. destruct (Nat.eqb_spec k 0) as [->|H]; [|apply I1].
    rewrite E0. intros [= <-]. split; [lia|]. destruct (Z.eqb_spec sz 0) as [->|Hnz]; [split; assumption|].
    split; [|apply Forall_snoc; [exact Hpos|cbn; lia]].
    apply andb_false_iff in Hno. destruct (fsize_pos c0 Hpos) as [P1 P2]. destruct Hno as [Hno|Hno].
    + apply Z.ltb_ge in Hno. rewrite S0 in Hno. rewrite (P2 Hno). right. cbn. lia.
    + apply Z.ltb_ge in Hno. left. rewrite fsize_app. cbn. lia.
  - intros _. rewrite flook_fput. cbn [Nat.eqb]. rewrite E0. eexists. split; [reflexivity|].
    destruct (Z.eqb_spec sz 0) as [->|Hnz]; [lia|]. rewrite fsize_app. cbn. lia.
Qed.

Lemma Inv_next r o : Inv r -> (forall id sz, o = OWrite id sz -> 0 <= sz) -> Inv (next r o).
Proof.
  intros I Hsz. destruct o as [id sz| |]; cbn [next].
  - specialize (Hsz id sz eq_refl). destruct (Inv_reopen r I) as [I1 O1]. destruct (must_rotate r sz) eqn:E.
    + destruct (Inv_reopen _ (Inv_rotate _ I1)) as [I2 O2]. apply Inv_append; try assumption. rewrite size_after_rotate. reflexivity.
    + apply Inv_append; assumption.
  - destruct I as [I1 I2]. split; [exact I1|]. cbn. discriminate.
  - exact I.
Qed.

Definition sizes_ok (ops : list op) : Prop := Forall (fun o => match o with OWrite _ sz => 0 <= sz | _ => True end) ops.
Theorem Inv_final : forall ops r, Inv r -> sizes_ok ops -> Inv (final r ops).
Proof. apply (fold_left_inv_Forall Inv). intros r o I Ho. apply Inv_next; [exact I|]. intros id sz ->. exact Ho. Qed.

Definition pre_ok (pre : fs) : Prop := forall k c, flook pre k = Some c -> (k <= maxBackups)%nat /\ ok_file c.
Lemma Inv_start pre : pre_ok pre -> Inv (start pre).
Proof. intro H. split; [exact H|]. cbn. discriminate. Qed.
End H.
