(* C06 — cmp is any comparison function that is sign-antisymmetric and whose "<= 0" is transitive
   (a total preorder); keys and values are integers. The spec is the list of entries in key order, equal keys in
   insertion order: sins inserts before the first strictly greater key, srem drops the first entry equal to the key. *)
From Coq Require Import ZArith List Bool.
From Verif Require Import C06.Model C06.Proofs C06.Glue.
Import ListNotations.
Open Scope Z_scope.

(* every history of Insert/Remove: the operations never get stuck (no nil sibling), the in-order sequence is the spec list,
   and the red-black invariants, a black root and key order hold after every operation *)
Theorem C06_history_refines_ordered_multimap :
  forall cmp : Z -> Z -> Z,
  (forall a b, (cmp a b <? 0) = (0 <? cmp b a)) ->
  (forall a b c, cmp a b <= 0 -> cmp b c <= 0 -> cmp a c <= 0) ->
  forall ops : list op,
  exists t, fold_left (stepc cmp) ops (Some E) = Some t /\
            inorder t = fold_left (spec_step cmp) ops [] /\
            rb t = true /\ isBlack t = true /\ bst cmp t.
Proof. exact history_refines. Qed.
Print Assumptions C06_history_refines_ordered_multimap.

(* the instance the harness runs: integer keys with the usual order *)
Theorem C06_history_integer_keys : forall ops : list op,
  exists t, fold_left step ops (Some E) = Some t /\ inorder t = fold_left (spec_step zcmp) ops [] /\
            rb t = true /\ isBlack t = true /\ bst zcmp t.
Proof. exact (history_refines zcmp zcmp_anti zcmp_trans). Qed.
Print Assumptions C06_history_integer_keys.

(* Count *)
Theorem C06_count : forall t, size t = length (inorder t).
Proof. exact size_spec. Qed.
Print Assumptions C06_count.

(* Traverse / ReverseTraverse visit the entries in order / reverse order and stop as soon as the visitor returns false *)
Theorem C06_traverse : forall t vis, trav t vis = visit (map snd (inorder t)) vis.
Proof. exact trav_spec. Qed.
Print Assumptions C06_traverse.
Theorem C06_reverse_traverse : forall t vis, rtrav t vis = visit (rev (map snd (inorder t))) vis.
Proof. exact rtrav_spec. Qed.
Print Assumptions C06_reverse_traverse.

(* TraverseStartingAt: exactly the entries with key >= the start key, in order; the reverse form: key <= start, in reverse *)
Theorem C06_traverse_starting_at :
  forall cmp : Z -> Z -> Z,
  (forall a b, (cmp a b <? 0) = (0 <? cmp b a)) ->
  (forall a b c, cmp a b <= 0 -> cmp b c <= 0 -> cmp a c <= 0) ->
  forall t key vis, bst cmp t ->
  trav_ge cmp t key vis = visit (map snd (filter (ge_key cmp key) (inorder t))) vis.
Proof. intros cmp _ Ht. exact (trav_ge_spec cmp Ht). Qed.
Print Assumptions C06_traverse_starting_at.
Theorem C06_reverse_traverse_starting_at :
  forall cmp : Z -> Z -> Z,
  (forall a b, (cmp a b <? 0) = (0 <? cmp b a)) ->
  (forall a b c, cmp a b <= 0 -> cmp b c <= 0 -> cmp a c <= 0) ->
  forall t key vis, bst cmp t ->
  trav_le cmp t key vis = visit (rev (map snd (filter (le_key cmp key) (inorder t)))) vis.
Proof. exact trav_le_spec. Qed.
Print Assumptions C06_reverse_traverse_starting_at.

(* Get returns the first entry (in order) whose key equals the probe; First/Last are the ends of the order *)
Theorem C06_get_first_equal :
  forall cmp : Z -> Z -> Z,
  (forall a b, (cmp a b <? 0) = (0 <? cmp b a)) ->
  (forall a b c, cmp a b <= 0 -> cmp b c <= 0 -> cmp a c <= 0) ->
  forall t key, bst cmp t -> get cmp t key = option_map snd (find (eq_key cmp key) (inorder t)).
Proof. exact get_spec. Qed.
Print Assumptions C06_get_first_equal.
Theorem C06_first_last : forall t,
  first t = option_map snd (hd_error (inorder t)) /\ last t = option_map snd (hd_error (rev (inorder t))).
Proof. intro t. split; [exact (first_spec t) | exact (last_spec t)]. Qed.
Print Assumptions C06_first_last.

(* balance: height and the number of key comparisons of find / Insert are at most 2*log2(n+1) (+1 for Insert's repeated
   comparison with the parent) in every tree satisfying the invariants - which every reachable tree does, by the first theorem *)
Theorem C06_height_logarithmic : forall t, rb t = true -> isBlack t = true -> (height t <= 2 * Nat.log2 (size t + 1))%nat.
Proof. exact height_log. Qed.
Print Assumptions C06_height_logarithmic.
Theorem C06_comparison_bound : forall cmp t k, rb t = true -> isBlack t = true ->
  (find_cmps cmp t k <= 2 * Nat.log2 (size t + 1) /\ insert_cmps cmp t k <= 2 * Nat.log2 (size t + 1) + 1)%nat.
Proof. exact comparison_bound. Qed.
Print Assumptions C06_comparison_bound.

(* non-vacuity / regression: five equal keys, where rotations move the first one off the left spine *)
Example C06_ex_duplicates :
  let t := fold_left step [Ins 5 1; Ins 5 2; Ins 5 3; Ins 5 4; Ins 5 5] (Some E) in
  match t with
  | Some t => map snd (inorder t) = [1; 2; 3; 4; 5] /\ get zcmp t 5 = Some 1 /\
              fst (trav_ge zcmp t 5 (fun _ => true)) = [1; 2; 3; 4; 5] /\ rb t = true
  | None => False
  end.
Proof. vm_compute. repeat split. Qed.
Example C06_ex_remove_first :
  match fold_left step [Ins 5 1; Ins 5 2; Ins 5 3; Ins 3 4; Ins 5 5; Rem 5] (Some E) with
  | Some t => map snd (inorder t) = [4; 2; 3; 5]
  | None => False
  end.
Proof. vm_compute. reflexivity. Qed.
