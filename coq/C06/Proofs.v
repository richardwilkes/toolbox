From Coq Require Import ZArith List Bool Lia.
From Verif Require Import C06.Model.
Import ListNotations.
Open Scope Z_scope.

(* the entries left / right of the hole of a zipper *)
Fixpoint lctx (p : list frame) : list (Z*Z) :=
  match p with
  | [] => []
  | PL _ _ _ _ :: p' => lctx p'
  | PR _ s k v :: p' => lctx p' ++ inorder s ++ [(k,v)]
  end.
Fixpoint rctx (p : list frame) : list (Z*Z) :=
  match p with
  | [] => []
  | PL _ k v s :: p' => (k,v) :: inorder s ++ rctx p'
  | PR _ _ _ _ :: p' => rctx p'
  end.

Lemma inorder_plug t p : inorder (plug t p) = lctx p ++ inorder t ++ rctx p.
Proof.
  revert t; induction p as [|f p IH]; intro t; cbn.
  - now rewrite app_nil_r.
  - rewrite IH. destruct f; cbn; rewrite <- ?app_assoc; cbn; rewrite <- ?app_assoc; reflexivity.
Qed.
Lemma inorder_blacken t : inorder (blacken t) = inorder t.
Proof. destruct t; reflexivity. Qed.
Lemma inorder_redden t : inorder (redden t) = inorder t.
Proof. destruct t; reflexivity. Qed.

(* brings both sides of an equation between in-order sequences to right-nested form *)
Ltac norm := repeat (cbn [inorder lctx rctx app]; rewrite ?inorder_blacken, ?inorder_redden, <- ?app_assoc).

(* insfix recurses on the context two frames down (from the grandparent), which induction on the list does not offer: hence fix *)
Lemma inorder_insfix : forall p n, n <> E -> inorder (insfix n p) = lctx p ++ inorder n ++ rctx p.
Proof.
  fix IH 1. intros p n Hn. destruct n as [|nb nl nk nv nr]; [congruence|]. destruct p as [|fp [|fg rest]].
  - cbn. now rewrite app_nil_r.
  - destruct fp; cbn [insfix plug1]; norm; now rewrite ?app_nil_r.
  - cbn [insfix]. destruct fp as [[] pk pv psib | [] psib pk pv]; try apply inorder_plug;
      destruct fg as [gb gk gv uncle | gb uncle gk gv];
      (destruct (isRed uncle); [rewrite IH by discriminate | rewrite inorder_plug]); norm; reflexivity.
Qed.

Lemma inorder_insert cmp t k v : inorder (insert cmp t k v) = lctx (descend cmp t k []) ++ [(k,v)] ++ rctx (descend cmp t k []).
Proof. unfold insert. rewrite inorder_blacken, inorder_insfix by discriminate. reflexivity. Qed.

Open Scope nat_scope.

Lemma rb_T b l k v r : rb (T b l k v r) = true <->
  rb l = true /\ rb r = true /\ bh l = bh r /\ (b = true \/ isBlack l = true /\ isBlack r = true).
Proof. cbn [rb]. rewrite !andb_true_iff, orb_true_iff, andb_true_iff, Nat.eqb_eq. tauto. Qed.

Definition RB (t : tree) (h : nat) : Prop := rb t = true /\ bh t = h.

Lemma RB_T b l k v r h : RB (T b l k v r) ((if b then 1 else 0) + h) <->
  RB l h /\ RB r h /\ (b = true \/ isBlack l = true /\ isBlack r = true).
Proof. unfold RB. rewrite rb_T. cbn [bh]. intuition (try congruence); lia. Qed.
Lemma RB_E : RB E 0. Proof. split; reflexivity. Qed.
Lemma RB_black l k v r h : RB l h -> RB r h -> RB (T true l k v r) (S h).
Proof. intros. apply (RB_T true). auto. Qed.
Lemma RB_red l k v r h : RB l h -> RB r h -> isBlack l = true -> isBlack r = true -> RB (T false l k v r) h.
Proof. intros. apply (RB_T false). auto. Qed.

Lemma isBlack_blacken t : isBlack (blacken t) = true. Proof. destruct t; reflexivity. Qed.
Lemma rb_blacken t : rb t = true -> rb (blacken t) = true.
Proof. destruct t as [|b l k v r]; [auto|]. cbn [blacken]. rewrite !rb_T. tauto. Qed.
Lemma RB_blacken t h : RB t h -> isBlack t = false -> RB (blacken t) (S h).
Proof.
  destruct t as [|[] l k v r]; try discriminate. intros H _. apply (RB_T false) in H. apply RB_black; apply H.
Qed.
Lemma RB_redden t h : RB t (S h) -> isBlack t = true -> both_black t = true -> RB (redden t) h.
Proof.
  destruct t as [|[] l k v r]; try discriminate; [intros [_ H]; discriminate H|].
  intros H _ B. apply andb_prop in B. apply (RB_T true) in H. apply RB_red; tauto.
Qed.

(* the invariants except that a red root may have a red child: what a fix-up is handed, and what blackening the root repairs *)
Definition nearRB (t : tree) (h : nat) : Prop := rb (blacken t) = true /\ bh t = h.
Lemma nearRB_node b l k v r h : RB l h -> RB r h -> nearRB (T b l k v r) ((if b then 1 else 0) + h).
Proof. intros Hl Hr. destruct (RB_black l k v r h Hl Hr) as [H _]. split; [exact H|]. cbn [bh]. destruct Hl as [_ ->]. reflexivity. Qed.
Lemma nearRB_black t h : nearRB t h -> isBlack t = true -> RB t h.
Proof. destruct t as [|[] l k v r]; try discriminate; auto. Qed.
Lemma nearRB_red t h : nearRB t h -> isBlack t = false -> RB (blacken t) (S h).
Proof. destruct t as [|[] l k v r]; try discriminate. intros [H <-] _. split; [exact H|reflexivity]. Qed.

(* p is a valid context for a hole of black height h whose root is black iff hb *)
Fixpoint ctx (p : list frame) (h : nat) (hb : bool) : Prop :=
  match p with
  | [] => True
  | PL b _ _ s :: p' | PR b s _ _ :: p' =>
    RB s h /\ (b = true \/ hb = true /\ isBlack s = true) /\ ctx p' ((if b then 1 else 0) + h) b
  end.

Lemma ctx_mono p h hb : ctx p h hb -> ctx p h true.
Proof. destruct p as [|[] p]; cbn [ctx]; tauto. Qed.

Lemma rb_plug : forall p t h, RB t h -> ctx p h (isBlack t) -> rb (plug t p) = true.
Proof.
  induction p as [|f p IH]; intros t h Ht Hc; [apply Ht|].
  destruct f as [b k v s | b s k v]; destruct Hc as (Hs & Hcol & Hc); cbn [plug plug1];
    apply (IH _ ((if b then 1 else 0) + h)); try exact Hc; apply RB_T; tauto.
Qed.

Lemma rb_unplug : forall p t, rb (plug t p) = true -> rb t = true /\ ctx p (bh t) (isBlack t).
Proof.
  induction p as [|f p IH]; intros t H; [split; [exact H|exact I]|]. destruct (IH _ H) as [R C].
  destruct f as [b k v s | b s k v]; cbn [plug1 bh isBlack] in R, C; apply rb_T in R; destruct R as (R1 & R2 & Hbh & Hcol).
  - split; [exact R1|]. split; [split; [exact R2|symmetry; exact Hbh]|]. split; [exact Hcol|exact C].
  - rewrite Hbh in C. split; [exact R2|]. split; [split; [exact R1|exact Hbh]|]. split; [tauto|exact C].
Qed.

Local Hint Resolve RB_black RB_red RB_blacken RB_redden isBlack_blacken : rb.

Lemma rb_insfix : forall p n h, RB n h -> isBlack n = false -> ctx p h true -> rb (blacken (insfix n p)) = true.
Proof.
  fix IH 1. intros p n h Hn Bn Hc.
  destruct n as [|[] nl nk nv nr]; try discriminate. destruct (proj1 (RB_T false _ _ _ _ _) Hn) as (Hnl & Hnr & [?|[Bnl Bnr]]); [discriminate|].
  destruct p as [|fp [|fg rest]]; [apply rb_blacken, Hn | |].
  - destruct fp; destruct Hc as (Hs & _); exact (proj1 (nearRB_node _ _ _ _ _ _ Hn Hs)) || exact (proj1 (nearRB_node _ _ _ _ _ _ Hs Hn)).
  - cbn [insfix].
    (* a black parent absorbs the red node; under a red parent the grandparent is black and the uncle decides *)
    destruct fp as [[] pk pv psib | [] psib pk pv]; cbn [ctx] in Hc.
    1, 3: apply rb_blacken, (rb_plug _ _ h Hn); cbn [ctx]; tauto.
    all: destruct Hc as (Hs & [?|[_ Bs]] & Hc); [discriminate|].
    all: destruct fg as [gb gk gv uncle | gb uncle gk gv]; destruct Hc as (Hu & [->|[? _]] & Hc); try discriminate.
    all: unfold isRed; destruct (isBlack uncle) eqn:Bu; cbn [negb].
    (* black uncle: one or two rotations end the fix-up; red uncle: recolour and continue from the grandparent *)
    1, 3, 5, 7: apply rb_blacken, (rb_plug _ _ (S h)); [|exact Hc]; auto 6 with rb.
    all: apply (IH rest _ (S h)); [|reflexivity|exact Hc]; auto 6 with rb.
Qed.

Lemma rotL_ok pb x pk pv s h : RB x h -> RB s (S h) -> isBlack s = true -> both_black s = false ->
  exists t, rotL_case pb x pk pv s = Some t /\ inorder t = inorder x ++ (pk, pv) :: inorder s /\
            RB t ((if pb then 1 else 0) + S h) /\ isBlack t = pb.
Proof.
  destruct s as [|[] sl sk sv sr]; try discriminate. intros Hx Hs _ BB.
  apply (RB_T true) in Hs. destruct Hs as (Hl & Hr & _). cbn [rotL_case both_black] in *. destruct (isBlack sr) eqn:Br.
  - rewrite andb_true_r in BB. destruct sl as [|[] a lk lv b']; try discriminate.
    apply (RB_T false) in Hl. destruct Hl as (Ha & Hb & _).
    eexists. split; [reflexivity|]. split; [norm; reflexivity|]. split; [apply RB_T; auto 6 with rb | reflexivity].
  - destruct sr as [|[] c rk rv d]; try discriminate. cbn [blacken]. apply (RB_T false) in Hr. destruct Hr as (Hc & Hd & _).
    eexists. split; [reflexivity|]. split; [norm; reflexivity|]. split; [apply RB_T; auto 6 with rb | reflexivity].
Qed.
Lemma rotR_ok pb s pk pv x h : RB x h -> RB s (S h) -> isBlack s = true -> both_black s = false ->
  exists t, rotR_case pb s pk pv x = Some t /\ inorder t = inorder s ++ (pk, pv) :: inorder x /\
            RB t ((if pb then 1 else 0) + S h) /\ isBlack t = pb.
Proof.
  destruct s as [|[] sl sk sv sr]; try discriminate. intros Hx Hs _ BB.
  apply (RB_T true) in Hs. destruct Hs as (Hl & Hr & _). cbn [rotR_case both_black] in *. destruct (isBlack sl) eqn:Bl.
  - cbn [andb] in BB. destruct sr as [|[] a rk rv b']; try discriminate.
    apply (RB_T false) in Hr. destruct Hr as (Ha & Hb & _).
    eexists. split; [reflexivity|]. split; [norm; reflexivity|]. split; [apply RB_T; auto 6 with rb | reflexivity].
  - destruct sl as [|[] c lk lv d]; try discriminate. cbn [blacken]. apply (RB_T false) in Hl. destruct Hl as (Hc & Hd & _).
    eexists. split; [reflexivity|]. split; [norm; reflexivity|]. split; [apply RB_T; auto 6 with rb | reflexivity].
Qed.

(* Some: no nil sibling was met, where the Go code would crash *)
Definition result (l : list (Z * Z)) (o : option tree) : Prop :=
  exists t, o = Some t /\ inorder t = l /\ rb t = true /\ isBlack t = true.
Lemma result_plug t q h l : RB t h -> ctx q h (isBlack t) -> lctx q ++ inorder t ++ rctx q = l ->
  result l (Some (blacken (plug t q))).
Proof.
  intros R C <-. eexists. split; [reflexivity|]. rewrite inorder_blacken, inorder_plug.
  split; [reflexivity|]. split; [apply rb_blacken, (rb_plug _ _ h R C) | apply isBlack_blacken].
Qed.

(* Remove's fix-up: x is one black node short of what its context expects *)
Theorem delfix_ok : forall p x h l, nearRB x h -> ctx p (S h) true -> lctx p ++ inorder x ++ rctx p = l -> result l (delfix x p).
Proof.
  induction p as [|f rest IH]; intros x h l Hx Hc <-; cbn [delfix].
  - exists (blacken x). norm. rewrite app_nil_r. repeat split; [apply Hx | apply isBlack_blacken].
  - unfold isRed. destruct (isBlack x) eqn:Bx; cbn [negb].
    2: { apply (result_plug _ _ (S h)); [apply nearRB_red; assumption | rewrite isBlack_blacken; exact Hc | norm; reflexivity]. }
    pose proof (nearRB_black _ _ Hx Bx) as Rx.
    destruct f as [pb pk pv s | pb s pk pv]; destruct Hc as (Hs & Hcol & Hc);
      (destruct s as [|[] sl sk sv sr]; [destruct Hs as [_ Hs]; discriminate Hs | |]).
    + destruct (both_black (T true sl sk sv sr)) eqn:BB.
      * apply andb_prop in BB. apply (RB_T true) in Hs. rewrite Nat.add_succ_r in Hc.
        apply (IH _ ((if pb then 1 else 0) + h)); [apply nearRB_node; [|apply RB_red]; tauto | exact (ctx_mono _ _ _ Hc) | norm; reflexivity].
      * destruct (rotL_ok pb x pk pv _ h Rx Hs eq_refl BB) as (t' & -> & It & Rt & Bt). cbn [omap].
        apply (result_plug _ _ _ _ Rt); [rewrite Bt; exact Hc | rewrite It; norm; reflexivity].
    + (* red sibling: the parent is black and the sibling's children are black nodes of x's former height *)
      destruct Hcol as [->|[_ ?]]; [|discriminate]. apply (RB_T false) in Hs. destruct Hs as (Hl & Hr & [?|[Bl Br]]); [discriminate|].
      destruct (both_black sl) eqn:BB.
      * apply (result_plug _ _ (S (S h))); [auto 6 with rb | exact Hc | norm; reflexivity].
      * destruct (rotL_ok false x pk pv _ h Rx Hl Bl BB) as (t' & -> & It & Rt & Bt). cbn [omap].
        apply (result_plug _ _ (S (S h))); [auto with rb | exact Hc | cbn [inorder]; rewrite It; norm; reflexivity].
    + destruct (both_black (T true sl sk sv sr)) eqn:BB.
      * apply andb_prop in BB. apply (RB_T true) in Hs. rewrite Nat.add_succ_r in Hc.
        apply (IH _ ((if pb then 1 else 0) + h)); [apply nearRB_node; [apply RB_red|]; tauto | exact (ctx_mono _ _ _ Hc) | norm; reflexivity].
      * destruct (rotR_ok pb _ pk pv x h Rx Hs eq_refl BB) as (t' & -> & It & Rt & Bt). cbn [omap].
        apply (result_plug _ _ _ _ Rt); [rewrite Bt; exact Hc | rewrite It; norm; reflexivity].
    + destruct Hcol as [->|[_ ?]]; [|discriminate]. apply (RB_T false) in Hs. destruct Hs as (Hl & Hr & [?|[Bl Br]]); [discriminate|].
      destruct (both_black sr) eqn:BB.
      * apply (result_plug _ _ (S (S h))); [auto 6 with rb | exact Hc | norm; reflexivity].
      * destruct (rotR_ok false _ pk pv x h Rx Hr Br BB) as (t' & -> & It & Rt & Bt). cbn [omap].
        apply (result_plug _ _ (S (S h))); [auto with rb | exact Hc | cbn [inorder]; rewrite It; norm; reflexivity].
Qed.
