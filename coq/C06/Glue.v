(* C06 — the main refinement proof: every history of Insert/Remove refines the sorted-list multimap and keeps the invariants;
   with it the key-order predicate bst, the query specifications and the bounds that follow from balance. *)
From Coq Require Import ZArith List Bool Lia Sorted.
From Verif Require Import C06.Model C06.Proofs.
Import ListNotations.

(* facts about lists that the standard library does not state *)
Lemma StronglySorted_app {A} (R : A -> A -> Prop) l1 l2 :
  StronglySorted R (l1 ++ l2) <-> StronglySorted R l1 /\ StronglySorted R l2 /\ forall x y, In x l1 -> In y l2 -> R x y.
Proof.
  induction l1 as [|a l1 IH]; cbn [app]; [split; [intro; repeat split; [constructor|assumption|intros ? ? []] | tauto]|]. split.
  - intro S. inversion S as [|? ? S' F]; subst. apply IH in S'. destruct S' as (S1 & S2 & C).
    apply Forall_app in F. destruct F as [F1 F2]. rewrite Forall_forall in F2.
    repeat split; [constructor; assumption | assumption | intros x y [<-|Hx] Hy; auto].
  - intros (S1 & S2 & C). inversion S1 as [|? ? S1' F1]; subst.
    constructor; [apply IH; repeat split; auto; intros; apply C; [right|]; assumption|].
    apply Forall_app. split; [assumption|]. apply Forall_forall. intros y Hy. apply C; [left; reflexivity|assumption].
Qed.
Lemma filter_none {A} (f : A -> bool) l : (forall x, In x l -> f x = false) -> filter f l = [].
Proof. induction l as [|y l IH]; intro H; cbn; [reflexivity|]. rewrite (H y) by (left; reflexivity). apply IH. intros; apply H; right; assumption. Qed.
Lemma find_app {A} (f : A -> bool) l1 l2 : find f (l1 ++ l2) = match find f l1 with Some x => Some x | None => find f l2 end.
Proof. induction l1 as [|y l1 IH]; cbn; [reflexivity|]. destruct (f y); [reflexivity|exact IH]. Qed.
Lemma find_none_all {A} (f : A -> bool) l : (forall x, In x l -> f x = false) -> find f l = None.
Proof. induction l as [|y l IH]; intro H; cbn; [reflexivity|]. rewrite (H y) by (left; reflexivity). apply IH. intros; apply H; right; assumption. Qed.

Open Scope Z_scope.
(* the shape every traversal of a node has: the left part, the node, the right part, until told to stop *)
Lemma visit_mid a v b vis :
  visit (a ++ v :: b) vis = let '(x, c) := visit a vis in if negb c then (x, false) else
                            if vis v then let '(y, c2) := visit b vis in (x ++ v :: y, c2) else (x ++ [v], false).
Proof.
  induction a as [|u a IH]; cbn [app visit].
  - cbn [negb app]. destruct (vis v); [destruct (visit b vis)|]; reflexivity.
  - destruct (vis u); [|reflexivity]. rewrite IH. destruct (visit a vis) as [x []]; cbn [negb app]; [|reflexivity].
    destruct (vis v); [destruct (visit b vis)|]; reflexivity.
Qed.
Lemma visit_false l vis a : visit l vis = (a, false) -> True. Proof. auto. Qed.

Theorem trav_spec t vis : trav t vis = visit (map snd (inorder t)) vis.
Proof.
  induction t as [|b l IHl k v r IHr]; [reflexivity|]. cbn [trav inorder]. rewrite map_app. cbn [map snd].
  rewrite visit_mid, IHl, IHr. reflexivity.
Qed.
Theorem rtrav_spec t vis : rtrav t vis = visit (rev (map snd (inorder t))) vis.
Proof.
  induction t as [|b l IHl k v r IHr]; [reflexivity|]. cbn [rtrav inorder]. rewrite map_app, rev_app_distr. cbn [map snd rev].
  rewrite <- app_assoc. cbn [app]. rewrite visit_mid, IHl, IHr. reflexivity.
Qed.

Theorem first_spec t : first t = option_map snd (hd_error (inorder t)).
Proof.
  induction t as [|b l IHl k v r _]; [reflexivity|]. cbn [first inorder]. destruct l as [|lb ll lk lv lr]; [reflexivity|].
  rewrite IHl. cbn [inorder]. destruct (inorder ll); reflexivity.
Qed.
Theorem last_spec t : last t = option_map snd (hd_error (rev (inorder t))).
Proof.
  induction t as [|b l _ k v r IHr]; [reflexivity|]. cbn [last inorder]. rewrite rev_app_distr. cbn [rev].
  destruct r as [|rb rl rk rv rr]; [reflexivity|]. rewrite IHr. cbn [inorder]. rewrite rev_app_distr. cbn [rev]. rewrite <- !app_assoc.
  destruct (rev (inorder rr)); reflexivity.
Qed.
Theorem size_spec t : size t = length (inorder t).
Proof. induction t as [|b l IHl k v r IHr]; [reflexivity|]. cbn [size inorder]. rewrite app_length. cbn [length]. lia. Qed.

Open Scope nat_scope.
Lemma height_bh t : rb t = true -> height t <= 2 * bh t + (if isBlack t then 0 else 1).
Proof.
  induction t as [|b l IHl k v r IHr]; intro R; [cbn; lia|]. apply rb_T in R. destruct R as (Rl & Rr & Hbh & Hcol).
  specialize (IHl Rl). specialize (IHr Rr). cbn [height bh isBlack].
  destruct b; [destruct (isBlack l), (isBlack r); lia|]. destruct Hcol as [?|[Hl Hr]]; [discriminate|]. rewrite Hl in IHl. rewrite Hr in IHr. lia.
Qed.
Lemma size_bh t : rb t = true -> 2 ^ bh t <= size t + 1.
Proof.
  induction t as [|b l IHl k v r IHr]; intro R; [cbn; lia|]. apply rb_T in R. destruct R as (Rl & Rr & Hbh & _).
  specialize (IHl Rl). specialize (IHr Rr). cbn [size bh]. rewrite <- Hbh in IHr.
  destruct b; cbn [Nat.add]; [rewrite Nat.pow_succ_r'|]; lia.
Qed.
Theorem height_log t : rb t = true -> isBlack t = true -> height t <= 2 * Nat.log2 (size t + 1).
Proof.
  intros R B. pose proof (height_bh t R) as H. rewrite B in H. pose proof (size_bh t R) as S.
  assert (bh t <= Nat.log2 (size t + 1)).
  { rewrite <- (Nat.log2_pow2 (bh t)) by lia. apply Nat.log2_le_mono. exact S. }
  lia.
Qed.
Lemma find_cmps_height cmp t k : find_cmps cmp t k <= height t.
Proof. induction t as [|b l IHl k' v r IHr]; [cbn; lia|]. cbn [find_cmps height].
  destruct (Z.ltb (cmp k k') 0); [lia|]. destruct (Z.ltb 0 (cmp k k')); lia. Qed.
Lemma descend_cmps_height cmp t k : descend_cmps cmp t k <= height t.
Proof. induction t as [|b l IHl k' v r IHr]; [cbn; lia|]. cbn [descend_cmps height]. destruct (Z.ltb (cmp k k') 0); lia. Qed.
Theorem comparison_bound cmp t k : rb t = true -> isBlack t = true ->
  find_cmps cmp t k <= 2 * Nat.log2 (size t + 1) /\ insert_cmps cmp t k <= 2 * Nat.log2 (size t + 1) + 1.
Proof.
  intros R B. pose proof (height_log t R B). pose proof (find_cmps_height cmp t k). pose proof (descend_cmps_height cmp t k).
  split; [lia|]. unfold insert_cmps. destruct t; lia.
Qed.

(* a zipper (n, q) reached by walking down from t denotes t: plug n q = t. So n is valid, and q is a valid context for it,
   whenever t is valid. *)
Lemma plug_descend cmp key : forall t p, plug E (descend cmp t key p) = plug t p.
Proof. induction t as [|b l IHl k v r IHr]; intro p; cbn [descend]; [reflexivity|]. destruct (cmp key k <? 0)%Z; [apply IHl|apply IHr]. Qed.
Lemma plug_find_first cmp key : forall t p n q, find_first cmp t key p = Some (n, q) -> plug n q = plug t p.
Proof.
  induction t as [|b l IHl k v r IHr]; intros p n q H; [discriminate|]. cbn [find_first] in H.
  destruct (cmp key k <? 0)%Z; [exact (IHl _ _ _ H)|]. destruct (0 <? cmp key k)%Z; [exact (IHr _ _ _ H)|].
  destruct (find_first cmp l key (PL b k v r :: p)) as [[n' q']|] eqn:F; injection H as <- <-; [exact (IHl _ _ _ F)|reflexivity].
Qed.

Theorem rb_insert cmp t k v : rb t = true -> rb (insert cmp t k v) = true /\ isBlack (insert cmp t k v) = true.
Proof.
  intro R. split; [|apply isBlack_blacken]. apply (rb_insfix _ _ 0); [apply RB_red; auto using RB_E | reflexivity |].
  apply (rb_unplug _ E). rewrite plug_descend. exact R.
Qed.

Lemma leftmost_spec : forall l b k v r P sb sk sv sr hp,
  leftmost b l k v r P = ((sb, sk, sv, sr), hp) ->
  exists fs, hp = fs ++ P /\ (forall P', lctx (fs ++ P') = lctx P') /\
    (forall P', (sk, sv) :: inorder sr ++ rctx (fs ++ P') = inorder (T b l k v r) ++ rctx P') /\
    (forall P', plug (T sb E sk sv sr) (fs ++ P') = plug (T b l k v r) P').
Proof.
  induction l as [|lb ll IHl lk lv lr _]; intros b k v r P sb sk sv sr hp H; cbn [leftmost] in H.
  - injection H as <- <- <- <- <-. exists []. repeat split; auto.
  - destruct (IHl _ _ _ _ _ _ _ _ _ _ H) as (fs0 & Hhp & HL & HI & HP).
    exists (fs0 ++ [PL b k v r]). rewrite <- app_assoc.
    split; [exact Hhp|]. split; [intro P'; rewrite <- app_assoc, HL; reflexivity|].
    split; [intro P'; rewrite <- app_assoc, HI; cbn [app rctx inorder]; rewrite <- !app_assoc; reflexivity|].
    intro P'. rewrite <- app_assoc. apply HP.
Qed.

Lemma refit_at fs f0 q nb nl sk sv : refit (fs ++ f0 :: q) (length fs) nb nl sk sv = fs ++ PR nb nl sk sv :: q.
Proof. induction fs as [|f fs IH]; cbn [app length refit]; [reflexivity|]. rewrite IH. reflexivity. Qed.
Lemma black_leaf c : RB c 0 -> isBlack c = true -> c = E.
Proof. destruct c as [|[]]; [reflexivity| |discriminate]. intros [_ H]. discriminate H. Qed.

(* unlinking a node (colour b) that has at most one child c: in a valid tree c is nil or a red leaf, and nil under a red node *)
Lemma unlink_ok b l k v r c q : rb (plug (T b l k v r) q) = true -> l = E /\ c = r \/ r = E /\ c = l ->
  result (lctx q ++ inorder c ++ rctx q) (if b then delfix c q else Some (blacken (plug c q))).
Proof.
  intros V H. destruct (rb_unplug _ _ V) as [R C]. apply rb_T in R. destruct R as (Rl & Rr & Hbh & Hcol). cbn [bh isBlack] in C.
  assert (Hc : RB c 0 /\ bh l = 0 /\ (b = false -> isBlack c = true)).
  { destruct H as [[-> ->]|[-> ->]]; (split; [split; auto|]; split; [auto|]; intros ->; destruct Hcol as [?|[? ?]]; [discriminate|assumption]). }
  destruct Hc as (Rc & H0 & Bc). rewrite H0 in C. destruct b.
  - apply (delfix_ok _ _ 0); [split; [apply rb_blacken|]; apply Rc | exact C | reflexivity].
  - rewrite (black_leaf c Rc (Bc eq_refl)) in *. apply (result_plug _ _ 0); [exact RB_E | exact (ctx_mono _ _ _ C) | reflexivity].
Qed.
Lemma unlink_top (b : bool) c q : match q with [] => Some (blacken c) | _ => if b then delfix c q else Some (blacken (plug c q)) end
  = if b then delfix c q else Some (blacken (plug c q)).
Proof. destruct q; [destruct b|]; reflexivity. Qed.

Theorem splice_ok nb nl nk nv nr q : rb (plug (T nb nl nk nv nr) q) = true ->
  result (lctx q ++ inorder nl ++ inorder nr ++ rctx q) (splice nb nl nk nv nr q).
Proof.
  intros V. unfold splice.
  destruct nl as [|lb ll lk lv lr] eqn:El; [rewrite unlink_top; apply (unlink_ok nb E nk nv nr); auto|].
  destruct nr as [|rb' rl rk rv rr] eqn:Er; [rewrite unlink_top, <- El in *; apply (unlink_ok nb nl nk nv E); auto|].
  rewrite <- El in *. clear El.
  destruct (leftmost rb' rl rk rv rr (PR nb nl nk nv :: q)) as [[[[sb sk] sv] sr] hp] eqn:LM.
  destruct (leftmost_spec _ _ _ _ _ _ _ _ _ _ _ LM) as (fs & -> & HL & HI & HP).
  replace (length (fs ++ PR nb nl nk nv :: q) - length q - 1) with (length fs) by (rewrite app_length; cbn [length]; lia).
  rewrite refit_at.
  (* with the successor's key in the removed node the tree is as valid as before, and the successor's node has no left child *)
  replace (lctx q ++ inorder nl ++ inorder (T rb' rl rk rv rr) ++ rctx q)
    with (lctx (fs ++ PR nb nl sk sv :: q) ++ inorder sr ++ rctx (fs ++ PR nb nl sk sv :: q))
    by (rewrite HL; cbn [lctx]; rewrite <- !app_assoc; cbn [app]; rewrite HI; reflexivity).
  apply (unlink_ok sb E sk sv sr); [|auto]. rewrite HP. destruct (rb_unplug _ _ V) as [Rn Cn].
  exact (rb_plug q (T nb nl sk sv (T rb' rl rk rv rr)) _ (conj Rn eq_refl) Cn).
Qed.

Definition stepc (cmp : Z -> Z -> Z) (t : option tree) (o : op) : option tree :=
  match t with None => None | Some t => match o with Ins k v => Some (insert cmp t k v) | Rem k => remove cmp t k end end.
Definition spec_step (cmp : Z -> Z -> Z) (l : list (Z * Z)) (o : op) : list (Z * Z) :=
  match o with Ins k v => sins cmp l k v | Rem k => srem cmp l k end.

(* a total preorder on the keys; each lemma says after Proof using which of the two hypotheses it needs *)
Open Scope Z_scope.
Section Order.
Variable cmp : Z -> Z -> Z.
Hypothesis cmp_anti : forall a b, (cmp a b <? 0) = (0 <? cmp b a).
Hypothesis cmp_trans : forall a b c, cmp a b <= 0 -> cmp b c <= 0 -> cmp a c <= 0.

Lemma cmp_refl a : cmp a a = 0.
Proof using cmp_anti. pose proof (cmp_anti a a). destruct (cmp a a <? 0) eqn:E1, (0 <? cmp a a) eqn:E2; try discriminate; lia. Qed.
Lemma cmp_sym0 a b : cmp a b = 0 -> cmp b a = 0.
Proof using cmp_anti. intro H. pose proof (cmp_anti a b) as A. pose proof (cmp_anti b a) as B. rewrite H in *. cbn in *.
  destruct (0 <? cmp b a) eqn:E1; [discriminate|]. destruct (cmp b a <? 0) eqn:E2; [discriminate|]. lia. Qed.
Lemma cmp_ge_le a b : 0 <= cmp a b -> cmp b a <= 0.
Proof using cmp_anti. intro H. pose proof (cmp_anti a b) as A. destruct (cmp a b <? 0) eqn:E; [lia|]. symmetry in A. apply Z.ltb_ge in A. exact A. Qed.
Lemma cmp_lt_gt a b : cmp a b < 0 -> 0 < cmp b a.
Proof using cmp_anti. intro H. pose proof (cmp_anti a b) as A. rewrite (proj2 (Z.ltb_lt _ _) H) in A. symmetry in A. apply Z.ltb_lt in A. exact A. Qed.
Lemma cmp_gt_lt a b : 0 < cmp a b -> cmp b a < 0.
Proof using cmp_anti. intro H. pose proof (cmp_anti b a) as A. rewrite (proj2 (Z.ltb_lt _ _) H) in A. apply Z.ltb_lt in A. exact A. Qed.

Definition kle (x y : Z * Z) : Prop := cmp (fst x) (fst y) <= 0.
Definition all_le (l : list (Z * Z)) (k : Z) : Prop := forall x, In x l -> cmp (fst x) k <= 0.
Definition all_ge (l : list (Z * Z)) (k : Z) : Prop := forall x, In x l -> cmp k (fst x) <= 0.
Fixpoint bst (t : tree) : Prop :=
  match t with E => True | T _ l k _ r => bst l /\ bst r /\ all_le (inorder l) k /\ all_ge (inorder r) k end.

Lemma ge_all_le l k key x : all_le l k -> cmp k key <= 0 -> In x l -> 0 <= cmp key (fst x).
Proof using cmp_anti cmp_trans. intros A H Hx. pose proof (cmp_trans _ _ _ (A x Hx) H) as L. destruct (cmp key (fst x) <? 0) eqn:E; [|apply Z.ltb_ge, E].
  apply Z.ltb_lt, cmp_lt_gt in E. lia. Qed.
Lemma gt_all_le l k key x : all_le l k -> 0 < cmp key k -> In x l -> 0 < cmp key (fst x).
Proof using cmp_trans. intros A H Hx. destruct (Z_lt_le_dec 0 (cmp key (fst x))) as [?|L]; [assumption|]. pose proof (cmp_trans _ _ _ L (A x Hx)). lia. Qed.
Lemma lt_all_ge l k key x : all_ge l k -> cmp key k < 0 -> In x l -> cmp key (fst x) < 0.
Proof using cmp_anti cmp_trans.
  intros A H Hx. destruct (Z_lt_le_dec (cmp key (fst x)) 0) as [?|L]; [assumption|].
  pose proof (cmp_trans _ _ _ (A x Hx) (cmp_ge_le _ _ L)). pose proof (cmp_lt_gt _ _ H). lia.
Qed.

Lemma bst_sorted t : bst t <-> StronglySorted kle (inorder t).
Proof using cmp_trans.
  induction t as [|b l IHl k v r IHr]; cbn [bst inorder]; [split; auto; constructor|].
  rewrite StronglySorted_app, IHl, IHr. split.
  - intros (Sl & Sr & Al & Ar). split; [exact Sl|]. split; [constructor; [exact Sr | apply Forall_forall, Ar]|].
    intros x y Hx [<-|Hy]; [apply Al, Hx | exact (cmp_trans _ _ _ (Al x Hx) (Ar y Hy))].
  - intros (Sl & Sr & C). inversion Sr as [|? ? Sr' F]; subst. rewrite Forall_forall in F.
    repeat split; [exact Sl | exact Sr' | intros x Hx; apply (C x (k, v) Hx); left; reflexivity | exact F].
Qed.

(* where the descent for k puts the hole is where sins puts the entry: a subtree with a strictly greater root is left through
   its left part, any other through its right part *)
Lemma sins_stop l1 x l2 k v : cmp k (fst x) <? 0 = true -> sins cmp (l1 ++ x :: l2) k v = sins cmp l1 k v ++ x :: l2.
Proof using.
  intro Hx. induction l1 as [|[k' v'] l1 IH]; cbn [app sins].
  - destruct x as [kx vx]. cbn [fst] in Hx. rewrite Hx. reflexivity.
  - destruct (cmp k k' <? 0); [reflexivity|]. rewrite IH. reflexivity.
Qed.
Lemma sins_pass l1 x l2 k v : (forall y, In y (l1 ++ [x]) -> cmp k (fst y) <? 0 = false) ->
  sins cmp (l1 ++ x :: l2) k v = l1 ++ x :: sins cmp l2 k v.
Proof using.
  intro H. induction l1 as [|[k' v'] l1 IH]; cbn [app sins].
  - destruct x as [kx vx]. rewrite (H (kx, vx) (or_introl eq_refl) : cmp k kx <? 0 = false). reflexivity.
  - rewrite (H (k', v') (or_introl eq_refl) : cmp k k' <? 0 = false), IH by (intros z Hz; apply H; right; exact Hz). reflexivity.
Qed.

Lemma descend_sins t k v : forall p, bst t ->
  lctx (descend cmp t k p) ++ (k, v) :: rctx (descend cmp t k p) = lctx p ++ sins cmp (inorder t) k v ++ rctx p.
Proof using cmp_anti cmp_trans.
  induction t as [|b l IHl k' v' r IHr]; intros p B; cbn [descend inorder]; [reflexivity|].
  destruct B as (Bl & Br & Al & Ar). destruct (cmp k k' <? 0) eqn:E.
  - rewrite (IHl _ Bl), (sins_stop _ (k', v')) by exact E. cbn [lctx rctx]. rewrite <- app_assoc. reflexivity.
  - rewrite (IHr _ Br), sins_pass; [cbn [lctx rctx]; rewrite <- !app_assoc; reflexivity|]. apply Z.ltb_ge in E.
    intros y Hy. apply Z.ltb_ge. apply in_app_or in Hy. destruct Hy as [Hy|[<-|[]]]; [|exact E].
    exact (ge_all_le _ _ _ _ Al (cmp_ge_le _ _ E) Hy).
Qed.

Theorem inorder_insert_spec t k v : bst t -> inorder (insert cmp t k v) = sins cmp (inorder t) k v.
Proof using cmp_anti cmp_trans.
  intro B. rewrite inorder_insert. cbn [app]. rewrite (descend_sins t k v [] B). apply app_nil_r.
Qed.

Lemma sins_in l k v x : In x (sins cmp l k v) -> x = (k, v) \/ In x l.
Proof using.
  induction l as [|[k' v'] l IH]; cbn [sins]; [intros [<-|[]]; auto|].
  destruct (cmp k k' <? 0); intros [<-|H]; cbn [In]; auto. destruct (IH H); auto.
Qed.
Lemma sins_sorted l k v : StronglySorted kle l -> StronglySorted kle (sins cmp l k v).
Proof using cmp_anti cmp_trans.
  induction l as [|[k' v'] l IH]; intro S; cbn [sins]; [repeat constructor|].
  inversion S as [|? ? S' F]; subst. rewrite Forall_forall in F. destruct (cmp k k' <? 0) eqn:E.
  - apply Z.ltb_lt in E. assert (K : kle (k, v) (k', v')) by (unfold kle; cbn; lia).
    constructor; [exact S|]. apply Forall_forall. intros x [<-|Hx]; [exact K | exact (cmp_trans _ _ _ K (F x Hx))].
  - apply Z.ltb_ge in E. constructor; [apply IH, S'|]. apply Forall_forall. intros x Hx.
    destruct (sins_in _ _ _ _ Hx) as [->|Hx']; [apply cmp_ge_le, E | apply F, Hx'].
Qed.

Definition ge_key (key : Z) (x : Z * Z) : bool := cmp key (fst x) <=? 0.    (* entry key >= probe key *)
Definition le_key (key : Z) (x : Z * Z) : bool := 0 <=? cmp key (fst x).    (* entry key <= probe key *)
Definition eq_key (key : Z) (x : Z * Z) : bool := cmp key (fst x) =? 0.

Lemma filter_all {A} (f : A -> bool) l : (forall x, In x l -> f x = true) -> filter f l = l.
Proof using. induction l as [|y l IH]; intro H; cbn; [reflexivity|]. rewrite (H y) by (left; reflexivity). f_equal. apply IH. intros; apply H; right; assumption. Qed.

Theorem trav_ge_spec t key vis : bst t ->
  trav_ge cmp t key vis = visit (map snd (filter (ge_key key) (inorder t))) vis.
Proof using cmp_trans.
  induction t as [|b l IHl k v r IHr]; intro B; [reflexivity|]. destruct B as (Bl & Br & Al & Ar).
  cbn [trav_ge inorder]. rewrite filter_app. cbn [filter]. unfold ge_key at 2. cbn [fst].
  rewrite (IHr Br). destruct (cmp key k <=? 0) eqn:E.
  - rewrite (IHl Bl), map_app. cbn [map snd]. rewrite visit_mid.
    destruct (visit (map snd (filter (ge_key key) (inorder l))) vis) as [a []]; cbn [negb]; [|reflexivity].
    destruct (vis v); cbn [negb]; [destruct (visit (map snd (filter (ge_key key) (inorder r))) vis)|]; reflexivity.
  - apply Z.leb_gt in E.
    rewrite (filter_none (ge_key key) (inorder l)) by (intros x Hx; apply Z.leb_gt; exact (gt_all_le _ _ _ _ Al E Hx)).
    cbn [map app negb]. destruct (visit (map snd (filter (ge_key key) (inorder r))) vis). reflexivity.
Qed.

Theorem trav_le_spec t key vis : bst t ->
  trav_le cmp t key vis = visit (rev (map snd (filter (le_key key) (inorder t)))) vis.
Proof using cmp_anti cmp_trans.
  induction t as [|b l IHl k v r IHr]; intro B; [reflexivity|]. destruct B as (Bl & Br & Al & Ar).
  cbn [trav_le inorder]. rewrite filter_app, map_app, rev_app_distr. cbn [filter]. unfold le_key at 1. cbn [fst].
  rewrite (IHl Bl). destruct (0 <=? cmp key k) eqn:E.
  - rewrite (IHr Br). cbn [map snd rev]. rewrite <- app_assoc. cbn [app]. rewrite visit_mid.
    destruct (visit (rev (map snd (filter (le_key key) (inorder r)))) vis) as [a []]; cbn [negb]; [|reflexivity].
    destruct (vis v); cbn [negb]; [destruct (visit (rev (map snd (filter (le_key key) (inorder l)))) vis)|]; reflexivity.
  - apply Z.leb_gt in E.
    rewrite (filter_none (le_key key) (inorder r)) by (intros x Hx; apply Z.leb_gt; exact (lt_all_ge _ _ _ _ Ar E Hx)).
    cbn [map rev app negb]. destruct (visit (rev (map snd (filter (le_key key) (inorder l)))) vis). reflexivity.
Qed.

Theorem get_spec t key : bst t -> get cmp t key = option_map snd (find (eq_key key) (inorder t)).
Proof using cmp_anti cmp_trans.
  induction t as [|b l IHl k v r IHr]; intro B; [reflexivity|]. destruct B as (Bl & Br & Al & Ar).
  cbn [get inorder]. rewrite find_app. cbn [find]. unfold eq_key at 2. cbn [fst].
  destruct (cmp key k <? 0) eqn:E1.
  - apply Z.ltb_lt in E1. rewrite (IHl Bl). destruct (find (eq_key key) (inorder l)); [reflexivity|].
    rewrite (proj2 (Z.eqb_neq _ _)) by lia. rewrite find_none_all; [reflexivity|].
    intros x Hx. apply Z.eqb_neq. pose proof (lt_all_ge _ _ _ _ Ar E1 Hx). lia.
  - destruct (0 <? cmp key k) eqn:E2.
    + apply Z.ltb_lt in E2. rewrite (find_none_all (eq_key key) (inorder l)).
      * rewrite (proj2 (Z.eqb_neq _ _)) by lia. apply (IHr Br).
      * intros x Hx. apply Z.eqb_neq. pose proof (gt_all_le _ _ _ _ Al E2 Hx). lia.
    + apply Z.ltb_ge in E1, E2. rewrite (IHl Bl). destruct (find (eq_key key) (inorder l)); [reflexivity|].
      rewrite (proj2 (Z.eqb_eq _ _)) by lia. reflexivity.
Qed.

Lemma srem_skip A x B key : (forall y, In y A -> cmp key (fst y) <> 0) -> cmp key (fst x) = 0 -> srem cmp (A ++ x :: B) key = A ++ B.
Proof using.
  intros HA Hx. induction A as [|[k' v'] A IH]; cbn [app srem].
  - destruct x as [kx vx]. cbn [fst] in Hx. rewrite Hx. reflexivity.
  - rewrite (proj2 (Z.eqb_neq _ _)) by (apply (HA (k', v')); left; reflexivity). f_equal. apply IH. intros y Hy. apply HA. right. exact Hy.
Qed.
Lemma srem_none l key : (forall y, In y l -> cmp key (fst y) <> 0) -> srem cmp l key = l.
Proof using.
  induction l as [|[k' v'] l IH]; intro H; cbn [srem]; [reflexivity|].
  rewrite (proj2 (Z.eqb_neq _ _)) by (apply (H (k', v')); left; reflexivity). f_equal. apply IH. intros y Hy. apply H. right. exact Hy.
Qed.
Lemma srem_in l key y : In y (srem cmp l key) -> In y l.
Proof using. induction l as [|[k' v'] l IH]; cbn [srem]; [auto|]. destruct (cmp key k' =? 0); [right; assumption|]. intros [<-|H]; [left; reflexivity|right; auto]. Qed.
Lemma srem_sorted l key : StronglySorted kle l -> StronglySorted kle (srem cmp l key).
Proof using.
  induction l as [|[k' v'] l IH]; intro S; cbn [srem]; [constructor|]. inversion S as [|? ? S' F]; subst.
  destruct (cmp key k' =? 0); [exact S'|]. constructor; [apply IH; exact S'|].
  rewrite Forall_forall in *. intros y Hy. apply F. eapply srem_in. exact Hy.
Qed.

(* the walk keeps every entry with the key out of what it leaves to the left of the hole; so the node it stops at is the first
   with the key, and when it finds none there is none *)
Lemma find_first_spec t key : forall p, bst t -> (forall y, In y (lctx p) -> cmp key (fst y) <> 0) ->
  match find_first cmp t key p with
  | None => forall x, In x (inorder t) -> cmp key (fst x) <> 0
  | Some (n, q) => exists nb nl nk nv nr, n = T nb nl nk nv nr /\ cmp key nk = 0 /\
                   forall y, In y (lctx q ++ inorder nl) -> cmp key (fst y) <> 0
  end.
Proof using cmp_anti cmp_trans.
  induction t as [|b l IHl k v r IHr]; intros p B Hp; cbn [find_first]; [intros x []|]. destruct B as (Bl & Br & Al & Ar).
  specialize (IHl (PL b k v r :: p) Bl Hp). cbn [inorder].
  destruct (cmp key k <? 0) eqn:E1.
  - apply Z.ltb_lt in E1. destruct (find_first cmp l key (PL b k v r :: p)) as [[n q]|]; [exact IHl|].
    intros x Hx. apply in_app_or in Hx. destruct Hx as [Hx|[<-|Hx]]; [exact (IHl x Hx) | cbn; lia |].
    pose proof (lt_all_ge _ _ _ _ Ar E1 Hx). lia.
  - destruct (0 <? cmp key k) eqn:E2.
    + apply Z.ltb_lt in E2.
      assert (Hp' : forall y, In y (lctx p ++ inorder l ++ [(k, v)]) -> cmp key (fst y) <> 0).
      { intros y Hy. rewrite !in_app_iff in Hy. destruct Hy as [Hy|[Hy|[<-|[]]]]; [exact (Hp y Hy) | | cbn; lia].
        pose proof (gt_all_le _ _ _ _ Al E2 Hy). lia. }
      specialize (IHr (PR b l k v :: p) Br Hp'). destruct (find_first cmp r key (PR b l k v :: p)) as [[n q]|]; [exact IHr|].
      intros x Hx. apply in_app_or in Hx. destruct Hx as [Hx|[<-|Hx]]; [| |exact (IHr x Hx)]; apply Hp'; rewrite !in_app_iff; cbn [In]; auto.
    + apply Z.ltb_ge in E1, E2. destruct (find_first cmp l key (PL b k v r :: p)) as [[n q]|]; [exact IHl|].
      exists b, l, k, v, r. split; [reflexivity|]. split; [lia|].
      intros y Hy. apply in_app_or in Hy. destruct Hy as [Hy|Hy]; [exact (Hp y Hy) | exact (IHl y Hy)].
Qed.

Definition Inv (t : tree) : Prop := rb t = true /\ isBlack t = true /\ bst t.

(* key order is a property of the in-order sequence alone, so an operation that is right about the sequence keeps Inv *)
Lemma result_Inv l o : result l o -> StronglySorted kle l -> exists t', o = Some t' /\ inorder t' = l /\ Inv t'.
Proof using cmp_trans. intros (t' & -> & <- & R & I) S. exists t'. repeat split; auto. apply bst_sorted, S. Qed.

Theorem remove_spec t key : Inv t -> exists t', remove cmp t key = Some t' /\ inorder t' = srem cmp (inorder t) key /\ Inv t'.
Proof using cmp_anti cmp_trans.
  intros (R & I & B). apply result_Inv; [|apply srem_sorted, bst_sorted, B]. unfold remove.
  pose proof (find_first_spec t key [] B ltac:(intros y [])) as S.
  destruct (find_first cmp t key []) as [[n q]|] eqn:F.
  - destruct S as (nb & nl & nk & nv & nr & -> & E0 & HN).
    apply plug_find_first in F. cbn [plug] in F. subst t.
    rewrite inorder_plug. cbn [inorder]. rewrite <- app_assoc. cbn [app]. rewrite app_assoc, srem_skip by auto. rewrite <- app_assoc.
    exact (splice_ok nb nl nk nv nr q R).
  - rewrite srem_none by exact S. exists t. auto.
Qed.

Lemma step_refines t o : Inv t -> exists t', stepc cmp (Some t) o = Some t' /\ inorder t' = spec_step cmp (inorder t) o /\ Inv t'.
Proof using cmp_anti cmp_trans.
  intros HI. destruct o as [k v|k]; cbn [stepc spec_step]; [|exact (remove_spec t k HI)]. destruct HI as (R & I & B).
  apply result_Inv; [|apply sins_sorted, bst_sorted, B]. exists (insert cmp t k v).
  destruct (rb_insert cmp t k v R). repeat split; auto. apply inorder_insert_spec, B.
Qed.

Theorem history_refines_from : forall ops t, Inv t ->
  exists t', fold_left (stepc cmp) ops (Some t) = Some t' /\ inorder t' = fold_left (spec_step cmp) ops (inorder t) /\ Inv t'.
Proof using cmp_anti cmp_trans.
  induction ops as [|o ops IH]; intros t HI; cbn [fold_left]; [exists t; auto|].
  destruct (step_refines t o HI) as (t1 & H1 & H2 & H3). rewrite H1, <- H2. apply IH. exact H3.
Qed.
Theorem history_refines ops :
  exists t, fold_left (stepc cmp) ops (Some E) = Some t /\ inorder t = fold_left (spec_step cmp) ops [] /\ Inv t.
Proof using cmp_anti cmp_trans. apply (history_refines_from ops E). repeat split; reflexivity. Qed.
End Order.

Lemma zcmp_anti a b : (zcmp a b <? 0) = (0 <? zcmp b a).
Proof. unfold zcmp. rewrite (Z.compare_antisym a b). destruct (a ?= b); reflexivity. Qed.
Lemma zcmp_trans a b c : zcmp a b <= 0 -> zcmp b c <= 0 -> zcmp a c <= 0.
Proof.
  unfold zcmp. destruct (a ?= b) eqn:E1; destruct (b ?= c) eqn:E2; destruct (a ?= c) eqn:E3; try lia; intros _ _; exfalso;
  rewrite ?Z.compare_eq_iff, ?Z.compare_lt_iff, ?Z.compare_gt_iff in *; lia.
Qed.
Lemma step_is_stepc t o : step t o = stepc zcmp t o.
Proof. reflexivity. Qed.
