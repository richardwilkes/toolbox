From Coq Require Import ZArith List Bool Arith Lia.
From Verif Require Import C17.Model.
Import ListNotations.

Lemma prefixes_spec : forall sg acc, prefixes sg acc = map (fun k => join (acc ++ firstn k sg)) (seq 1 (length sg)).
Proof.
  induction sg as [|x sg IH]; intro acc; [reflexivity|]. cbn [prefixes length seq map]. f_equal.
  rewrite IH. rewrite <- (seq_shift (length sg) 1), map_map. apply map_ext. intro k. cbn [firstn]. rewrite <- app_assoc.
  reflexivity.
Qed.

Theorem notify_consults_ancestors n name : enabled n = true -> segs name [] <> [] ->
  notify n name =
  fold_left (fun acc pre => match plook (prod n) pre with Some set => fold_left (fun a p => tset a (fst p) (snd p)) set acc | None => acc end)
            (map (fun k => join (firstn k (segs name []))) (seq 1 (length (segs name [])))) [].
Proof.
  intros He Hs. unfold notify. rewrite He. destruct (segs name []) as [|s0 sg] eqn:E; [congruence|].
  rewrite prefixes_spec. reflexivity.
Qed.

Theorem notify_disabled n name : enabled n = false -> notify n name = [].
Proof. intro H. unfold notify. rewrite H. reflexivity. Qed.
Theorem notify_empty_name n name : segs name [] = [] -> notify n name = [].
Proof. intro H. unfold notify. rewrite H. destruct (enabled n); reflexivity. Qed.

Lemma fold_none {A} (l : list A) (acc : list (nat * Z)) : fold_left (fun a (_ : A) => a) l acc = acc.
Proof. induction l; cbn; auto. Qed.
Theorem notify_after_reset n name : notify (reset n) name = [].
Proof.
  unfold notify, reset. cbn [enabled prod]. destruct (enabled n); [|reflexivity].
  destruct (segs name []) as [|s sg]; [reflexivity|]. apply fold_none.
Qed.
Theorem reset_clears n : batchT (reset n) = [] /\ prod (reset n) = [] /\ names (reset n) = [] /\ curBatch (reset n) = [] /\ level (reset n) = 0 /\ enabled (reset n) = enabled n.
Proof. repeat split. Qed.

Fixpoint starts (k : nat) (n : notifier) : notifier * list (list nat) :=
  match k with O => (n, []) | S k' => let '(n1, l) := start_batch n in let '(n2, ls) := starts k' n1 in (n2, l :: ls) end.
Fixpoint ends (k : nat) (n : notifier) : notifier * list (list nat) :=
  match k with O => (n, []) | S k' => let '(n1, l) := end_batch n in let '(n2, ls) := ends k' n1 in (n2, l :: ls) end.

Lemma starts_from_positive : forall k n, enabled n = true -> 0 < level n ->
  let '(n', ls) := starts k n in level n' = level n + k /\ enabled n' = true /\ curBatch n' = curBatch n /\ Forall (fun l => l = []) ls.
Proof.
  induction k as [|k IH]; intros n He Hl.
  { cbn [starts]. repeat split; auto; lia. }
  cbn [starts]. unfold start_batch. rewrite He.
  (* above level 0 start_batch takes its second branch whatever batchT is; said of any two branches, since they are whole records *)
  assert (E : forall A (x y : A), match S (level n), batchT n with 1, _ :: _ => x | _, _ => y end = y).
  { intros. destruct (level n); [lia|]. destruct (batchT n); reflexivity. }
  rewrite E. clear E.
  specialize (IH {| batchT := batchT n; prod := prod n; names := names n; curBatch := curBatch n; level := S (level n); enabled := true |} eq_refl ltac:(cbn; lia)).
  destruct (starts k _) as [n2 ls]. cbn [level enabled curBatch] in IH. destruct IH as (A & B & C & F).
  split; [lia|]. split; [exact B|]. split; [exact C|]. constructor; auto.
Qed.

Lemma ends_spec : forall k n, enabled n = true -> level n = k -> 0 < k ->
  let '(n', ls) := ends k n in level n' = 0 /\ curBatch n' = [] /\
  exists pre, ls = pre ++ [curBatch n] /\ Forall (fun l => l = []) pre.
Proof.
  induction k as [|k IH]; intros n He Hl Hk.
  { lia. }
  cbn [ends]. unfold end_batch. rewrite He, Hl. cbn [andb Nat.ltb Nat.leb pred].
  destruct k as [|k].
  - cbn [ends level curBatch]. repeat split; auto. exists []. split; [reflexivity|constructor].
  - specialize (IH {| batchT := batchT n; prod := prod n; names := names n; curBatch := curBatch n; level := S k; enabled := true |} eq_refl eq_refl ltac:(lia)).
    destruct (ends (S k) _) as [n2 ls]. cbn [curBatch] in IH.
    destruct IH as (A & B & pre & E & F).
    repeat split; auto. exists ([] :: pre). split; [rewrite E; reflexivity | constructor; auto].
Qed.

Theorem batches_nest k n : enabled n = true -> level n = 0 -> batchT n <> [] ->
  let '(n1, ls1) := starts (S k) n in
  let '(n2, ls2) := ends (S k) n1 in
  (exists rest, ls1 = batchT n :: rest /\ Forall (fun l => l = []) rest) /\
  (exists pre, ls2 = pre ++ [batchT n] /\ Forall (fun l => l = []) pre) /\
  level n2 = 0 /\ curBatch n2 = [].
Proof.
  intros He Hl Hb. cbn [starts]. unfold start_batch at 1. rewrite He, Hl.
  destruct (batchT n) as [|b bt] eqn:Eb; [congruence|].
  set (n1 := {| batchT := b :: bt; prod := prod n; names := names n; curBatch := b :: bt; level := 1; enabled := true |}).
  pose proof (starts_from_positive k n1 eq_refl ltac:(cbn; lia)) as S1. destruct (starts k n1) as [n2 ls].
  cbn [level curBatch n1] in S1.
  destruct S1 as (A & B & C & F).
  pose proof (ends_spec (S k) n2 B ltac:(lia) ltac:(lia)) as S2. destruct (ends (S k) n2) as [n3 ls2].
  destruct S2 as (A2 & B2 & pre & E2 & F2). rewrite C in E2.
  split; [exists ls; auto|]. split; [exists pre; auto|]. auto.
Qed.
