(* C17 — delivery order and panic isolation: the calls of one Notify are a permutation of the targets map, in non-increasing
   priority order; a panicking target is reported once and the remaining targets are still called. *)
From Coq Require Import ZArith List Bool Arith Lia Permutation Sorted.
From Verif Require Import C17.Model C17.Proofs C17.Proofs2.
Import ListNotations.
Local Open Scope Z_scope.

(* Props.v writes this body out; its theorems are closed by the lemmas here up to unfolding ge_prio *)
Definition ge_prio (a b : nat * Z) : Prop := snd a >= snd b.

Lemma insert_desc_perm x l : Permutation (insert_desc x l) (x :: l).
Proof.
  induction l as [|y r IH]; cbn [insert_desc]; [apply Permutation_refl|].
  destruct (snd y <? snd x); [apply Permutation_refl|].
  eapply Permutation_trans; [apply perm_skip; exact IH|apply perm_swap].
Qed.
Lemma sort_desc_perm l : Permutation (sort_desc l) l.
Proof.
  induction l as [|x l IH]; [apply Permutation_refl|]. cbn [sort_desc fold_right].
  eapply Permutation_trans; [apply insert_desc_perm|apply perm_skip; exact IH].
Qed.
Lemma insert_desc_sorted x l : StronglySorted ge_prio l -> StronglySorted ge_prio (insert_desc x l).
Proof.
  induction l as [|y r IH]; intro S; cbn [insert_desc].
  - constructor; constructor.
  - inversion S as [|? ? Sr Fy]; subst. destruct (snd y <? snd x) eqn:E.
    + apply Z.ltb_lt in E. constructor; [exact S|]. constructor; [unfold ge_prio; lia|].
      rewrite Forall_forall in *. intros z Hz. specialize (Fy z Hz). unfold ge_prio in *. lia.
    + apply Z.ltb_ge in E. constructor; [apply IH; exact Sr|].
      apply (Permutation_Forall (Permutation_sym (insert_desc_perm x r))). constructor; [unfold ge_prio; lia | exact Fy].
Qed.
Lemma sort_desc_sorted l : StronglySorted ge_prio (sort_desc l).
Proof. induction l as [|x l IH]; [constructor|]. cbn [sort_desc fold_right]. apply insert_desc_sorted. exact IH. Qed.

Lemma calls_deliver panics l : calls (flat_map (notify_target panics) l) = l.
Proof.
  induction l as [|[t pr] l IH]; [reflexivity|]. cbn [flat_map]. unfold calls in *. rewrite flat_map_app, IH.
  unfold notify_target. cbn [fst snd]. destruct (panics t); reflexivity.
Qed.
Lemma recovered_deliver panics l : recovered (flat_map (notify_target panics) l) = filter panics (map fst l).
Proof.
  induction l as [|[t pr] l IH]; [reflexivity|]. cbn [flat_map map filter fst]. unfold recovered in *.
  rewrite flat_map_app, IH.
  unfold notify_target. cbn [fst snd]. destruct (panics t); reflexivity.
Qed.

Lemma delivery_order panics n name :
  Permutation (calls (deliver panics n name)) (notify n name) /\
  StronglySorted ge_prio (calls (deliver panics n name)) /\
  recovered (deliver panics n name) = filter panics (map fst (calls (deliver panics n name))).
Proof.
  unfold deliver. rewrite calls_deliver, recovered_deliver. split; [apply sort_desc_perm|].
  split; [apply sort_desc_sorted|reflexivity].
Qed.

Lemma delivery_exact panics n name : enabled n = true -> segs name [] <> [] ->
  NoDup (map fst (calls (deliver panics n name))) /\
  (forall t p, In (t, p) (calls (deliver panics n name)) <-> msp (R n) (ancestors name) t = Some p) /\
  StronglySorted ge_prio (calls (deliver panics n name)) /\
  (forall t, In t (recovered (deliver panics n name)) <-> panics t = true /\ exists p, msp (R n) (ancestors name) t = Some p) /\
  NoDup (recovered (deliver panics n name)).
Proof.
  intros En Sg. destruct (notify_exact n name En Sg) as [ND EX]. destruct (delivery_order panics n name) as (P & S & RC).
  assert (IN : forall x, In x (calls (deliver panics n name)) <-> In x (notify n name)) by (intro x; split; apply Permutation_in; [exact P|apply Permutation_sym, P]).
  assert (ND' : NoDup (map fst (calls (deliver panics n name)))) by exact (Permutation_NoDup (Permutation_map fst (Permutation_sym P)) ND).
  split; [exact ND'|]. split; [intros t p; rewrite IN; apply EX|]. split; [exact S|]. split.
  - intro t. rewrite RC, filter_In, in_map_iff. split.
    + intros [[[t' p] [E I]] Pt]. cbn in E. subst t'. split; [exact Pt|]. exists p. apply EX, IN, I.
    + intros [Pt [p Hp]]. split; [|exact Pt]. exists (t, p). split; [reflexivity|]. apply IN, EX, Hp.
  - rewrite RC. apply NoDup_filter, ND'.
Qed.
Lemma delivery_none panics n name : enabled n = false \/ segs name [] = [] -> deliver panics n name = [].
Proof.
  intros [H|H]; unfold deliver; [rewrite notify_disabled by exact H|rewrite notify_empty_name by exact H]; reflexivity.
Qed.
