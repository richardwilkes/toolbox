From Coq Require Import ZArith List Bool Arith.
From Coq Require Import Permutation Sorted.
From Verif Require Import C17.Model C17.Proofs C17.Proofs2 C17.Proofs3.
Import ListNotations.

(* Notify consults exactly the dot-ancestors of the normalised name (joins of its leading non-empty segments), most specific last
   (so its priority wins) - never a name that merely shares a textual prefix *)
Theorem C17_notify_consults_exactly_the_ancestors : forall n name, enabled n = true -> segs name [] <> [] ->
  notify n name =
  fold_left (fun acc pre => match plook (prod n) pre with Some set => fold_left (fun a p => tset a (fst p) (snd p)) set acc | None => acc end)
            (map (fun k => join (firstn k (segs name []))) (seq 1 (length (segs name [])))) [].
Proof. exact notify_consults_ancestors. Qed.
Print Assumptions C17_notify_consults_exactly_the_ancestors.

(* nobody is called while the notifier is disabled, for an empty name, or after Reset *)
Theorem C17_disabled_calls_nobody : forall n name, enabled n = false -> notify n name = [].
Proof. exact notify_disabled. Qed.
Print Assumptions C17_disabled_calls_nobody.
Theorem C17_empty_name_calls_nobody : forall n name, segs name [] = [] -> notify n name = [].
Proof. exact notify_empty_name. Qed.
Print Assumptions C17_empty_name_calls_nobody.
Theorem C17_reset_calls_nobody : forall n name, notify (reset n) name = [].
Proof. exact notify_after_reset. Qed.
Print Assumptions C17_reset_calls_nobody.

(* StartBatch/EndBatch pairs nest: with k+1 nested pairs BatchMode(true) goes once, on the outermost start, to every batch
   target, and BatchMode(false) once, on the matching end, to the same targets *)
Theorem C17_batches_nest : forall k n, enabled n = true -> level n = 0 -> batchT n <> [] ->
  let '(n1, ls1) := starts (S k) n in
  let '(n2, ls2) := ends (S k) n1 in
  (exists rest, ls1 = batchT n :: rest /\ Forall (fun l => l = []) rest) /\
  (exists pre, ls2 = pre ++ [batchT n] /\ Forall (fun l => l = []) pre) /\
  level n2 = 0 /\ curBatch n2 = [].
Proof. exact batches_nest. Qed.
Print Assumptions C17_batches_nest.

(* Refinement to a registration relation (Proofs2.v). R n name t = the priority target t is registered with for name (read off
   the by-name map); msp r ancestors t = the priority of the most specific ancestor of the name that t is registered for. *)
(* Notify calls each target at most once, and exactly the targets registered for the name or one of its dot-ancestors, each with the
   priority of the most specific matching name - for every state of the maps, consistent or not *)
Theorem C17_notify_reaches_exactly_the_registered : forall n name, enabled n = true -> segs name [] <> [] ->
  NoDup (map fst (notify n name)) /\ forall t p, In (t, p) (notify n name) <-> msp (R n) (ancestors name) t = Some p.
Proof. exact notify_exact. Qed.
Print Assumptions C17_notify_reaches_exactly_the_registered.
(* Register / Unregister / RegisterFromNotifier act on the relation as on a set of registrations; Unregister and the merge need the
   consistency invariants (Inv: the by-target map lists every name of a target; KU: names are unique in the by-name map),
   which every operation preserves *)
Theorem C17_register_unregister_merge : forall n other t pr nms nm' t',
  R (register isBatch n t pr nms) nm' t' = (if existsb (seq_eq nm') (clean nms) && (t' =? t) then Some pr else R n nm' t') /\
  (Inv n -> R (unregister isBatch n t) nm' t' = if t' =? t then None else R n nm' t') /\
  (KU other -> R (register_from n other) nm' t' = match R other nm' t' with Some x => Some x | None => R n nm' t' end) /\
  R (reset n) nm' t' = None.
Proof.
  intros. split; [apply register_R|]. split; [apply unregister_R|]. split; [apply register_from_R|reflexivity].
Qed.
Print Assumptions C17_register_unregister_merge.
(* every history over two notifiers (Register, RegisterFromNotifier in both directions, Unregister, SetEnabled, Reset, Start/EndBatch,
   Notify): each Notify delivers exactly what the specification state (a registration relation and the enabled flag per notifier,
   sstep) prescribes: nobody while disabled or for an empty name, otherwise each registered target of an ancestor once *)
Theorem C17_every_history_refines_the_registration_set : forall ops, outs_ok (sinit, sinit) ops (run ops).
Proof. exact history_refines. Qed.
Print Assumptions C17_every_history_refines_the_registration_set.
(* Delivery (Proofs3.v): the calls one Notify makes. deliver = the targets map sorted by non-increasing priority, each target
   called inside notifyTarget (panic -> one report to the recovery handler, the loop goes on). *)
(* each registered target of the name or an ancestor is called exactly once, with the priority of the most specific name, nobody
   else is called, the calls are in non-increasing priority order, and - whichever targets panic - every one of them is still
   called, the recovery handler hearing of exactly the panicking ones, once each *)
Theorem C17_delivery_once_in_priority_order_despite_panics : forall panics n name, enabled n = true -> segs name [] <> [] ->
  NoDup (map fst (calls (deliver panics n name))) /\
  (forall t p, In (t, p) (calls (deliver panics n name)) <-> msp (R n) (ancestors name) t = Some p) /\
  StronglySorted (fun a b => (snd a >= snd b)%Z) (calls (deliver panics n name)) /\
  (forall t, In t (recovered (deliver panics n name)) <-> panics t = true /\ exists p, msp (R n) (ancestors name) t = Some p) /\
  NoDup (recovered (deliver panics n name)).
Proof. exact delivery_exact. Qed.
Print Assumptions C17_delivery_once_in_priority_order_despite_panics.
Theorem C17_delivery_is_a_sorted_permutation_of_the_targets : forall panics n name,
  Permutation (calls (deliver panics n name)) (notify n name) /\
  StronglySorted (fun a b => (snd a >= snd b)%Z) (calls (deliver panics n name)) /\
  recovered (deliver panics n name) = filter panics (map fst (calls (deliver panics n name))).
Proof. exact delivery_order. Qed.
Print Assumptions C17_delivery_is_a_sorted_permutation_of_the_targets.
Theorem C17_no_delivery_when_disabled_or_unnamed : forall panics n name, enabled n = false \/ segs name [] = [] -> deliver panics n name = [].
Proof. exact delivery_none. Qed.
Print Assumptions C17_no_delivery_when_disabled_or_unnamed.
Example C17_ex_delivery :
  let a := register isBatch (register isBatch (register isBatch new 0 1%Z [[97]]) 2 9%Z [[97; 46; 98]]) 1 5%Z [[97]] in
  deliver (fun t => t =? 2) a [97; 46; 98] = [ECall 2 9%Z; ERecovered 2; ECall 1 5%Z; ECall 0 1%Z].
Proof. vm_compute. reflexivity. Qed.
(* non-vacuity: after Register, merge and Unregister the specification prescribes a non-trivial delivery *)
Example C17_ex_history :
  let ops := [OReg 0 1 5%Z [[97]]; OReg 1 2 7%Z [[97; 46; 98]]; OReg 1 1 9%Z [[97; 46; 98]]; OFrom 0; OUnreg 1 1; ONotify 0 [97; 46; 98; 46; 99]; OUnreg 0 1; ONotify 0 [97; 46; 98]] in
  run ops = [ONone; ONone; ONone; ONone; ONone; OTargets [(1, 9%Z); (2, 7%Z)]; ONone; OTargets [(2, 7%Z)]].
Proof. vm_compute. reflexivity. Qed.

(* regression: the merge that used to drop the other notifier's targets *)
Example C17_ex_merge :
  let a := register isBatch new 0 1%Z [[97]] in
  let b := register isBatch new 1 2%Z [[97]] in
  map fst (notify (register_from a b) [97]) = [0; 1].
Proof. reflexivity. Qed.
Example C17_ex_prefix_not_ancestor :
  let a := register isBatch new 0 1%Z [[97; 46; 98]] in     (* "a.b" *)
  notify a [97; 46; 98; 99] = [] /\ map fst (notify a [97; 46; 98; 46; 99]) = [0].   (* "a.bc" no, "a.b.c" yes *)
Proof. split; reflexivity. Qed.
