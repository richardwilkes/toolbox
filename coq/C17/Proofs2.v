(* C17 — the three maps refine a registration relation: R n name t = the priority with which target t is registered for name.
   Notify, Register, Unregister, the merge and Reset are read as operations on R. *)
From Coq Require Import ZArith List Bool Arith Lia.
From Verif Require Import common.ListFacts C17.Model C17.Proofs.
Import ListNotations.

Lemma seq_eq_spec a : forall b, seq_eq a b = true <-> a = b.
Proof. exact (list_eqb_spec Nat.eqb Nat.eqb_eq a). Qed.
Lemma seq_eq_refl a : seq_eq a a = true. Proof. apply seq_eq_spec. reflexivity. Qed.
Lemma seq_eq_sym a b : seq_eq a b = seq_eq b a. Proof. apply eq_true_iff_eq. rewrite !seq_eq_spec. split; congruence. Qed.

Lemma existsb_seq_eq x l : existsb (seq_eq x) l = true <-> In x l.
Proof.
  rewrite existsb_exists.
  split; [intros (y & Iy & Ey); apply seq_eq_spec in Ey; subst y; exact Iy|intro I; exists x; split; [exact I|apply seq_eq_refl]].
Qed.

(* the shape of all three maps of the model: the first binding is found, update replaces every binding or appends, delete removes all *)
Section Assoc.
Variables (K V : Type) (eqb : K -> K -> bool).
Hypothesis eqb_spec : forall a b, eqb a b = true <-> a = b.
Definition glook (m : list (K * V)) (k : K) :=
  match find (fun p => eqb (fst p) k) m with Some p => Some (snd p) | None => None end.
Definition gset (m : list (K * V)) (k : K) (v : V) :=
  if existsb (fun p => eqb (fst p) k) m then map (fun p => if eqb (fst p) k then (k, v) else p) m else m ++ [(k, v)].
Definition gdel (m : list (K * V)) (k : K) := filter (fun p => negb (eqb (fst p) k)) m.
Lemma eqb_sym a b : eqb a b = eqb b a. Proof. apply eq_true_iff_eq. rewrite !eqb_spec. split; congruence. Qed.
Lemma glook_none m k : existsb (fun p => eqb (fst p) k) m = false -> glook m k = None.
Proof.
  unfold glook. induction m as [|p m IH]; [reflexivity|]. cbn [existsb find]. intro H. apply orb_false_iff in H.
  destruct H as [H1 H2]. rewrite H1. apply IH. exact H2.
Qed.
Lemma find_snoc (P : K * V -> bool) m x :
  find P (m ++ [x]) = match find P m with Some p => Some p | None => if P x then Some x else None end.
Proof. induction m as [|p m IH]; [reflexivity|]. cbn [app find]. destruct (P p); [reflexivity|exact IH]. Qed.
(* rewriting every binding of k to v: k is then bound to v if it was bound at all, other keys are untouched *)
Lemma glook_replace m k v k' :
  glook (map (fun p => if eqb (fst p) k then (k, v) else p) m) k' =
  if eqb k' k then (if existsb (fun p => eqb (fst p) k) m then Some v else None) else glook m k'.
Proof.
  unfold glook. induction m as [|p m IH]; [destruct (eqb k' k); reflexivity|]. cbn [map find existsb].
  destruct (eqb (fst p) k) eqn:Ep; cbn [fst orb].
  - rewrite (eqb_sym k k'). destruct (eqb k' k) eqn:Ek; [reflexivity|]. apply eqb_spec in Ep. rewrite Ep, (eqb_sym k k'), Ek. exact IH.
  - destruct (eqb (fst p) k') eqn:Ep'; [|exact IH]. apply eqb_spec in Ep'. subst k'. rewrite Ep. reflexivity.
Qed.
Lemma glook_gset m k v k' : glook (gset m k v) k' = if eqb k' k then Some v else glook m k'.
Proof.
  unfold gset. destruct (existsb (fun p => eqb (fst p) k) m) eqn:E; [rewrite glook_replace, E; reflexivity|].
  pose proof (glook_none m k E) as N. unfold glook in *. rewrite find_snoc. cbn [fst snd]. rewrite (eqb_sym k k').
  destruct (eqb k' k) eqn:Ek; [apply eqb_spec in Ek; subst k'; destruct (find (fun p => eqb (fst p) k) m); [discriminate|reflexivity]|].
  destruct (find (fun p => eqb (fst p) k') m); reflexivity.
Qed.
Lemma glook_gdel m k k' : glook (gdel m k) k' = if eqb k' k then None else glook m k'.
Proof.
  unfold glook, gdel. induction m as [|p m IH]; [destruct (eqb k' k); reflexivity|]. cbn [filter find].
  destruct (eqb (fst p) k) eqn:Ep; cbn [negb].
  - rewrite IH. apply eqb_spec in Ep. rewrite Ep, (eqb_sym k k'). destruct (eqb k' k); reflexivity.
  - cbn [find]. destruct (eqb (fst p) k') eqn:Ep'.
    + apply eqb_spec in Ep'. subst k'. rewrite Ep. reflexivity.
    + exact IH.
Qed.
Lemma gset_keys m k v : NoDup (map fst m) -> NoDup (map fst (gset m k v)).
Proof.
  intro H. unfold gset. destruct (existsb (fun p => eqb (fst p) k) m) eqn:E.
  - assert (M : map fst (map (fun p => if eqb (fst p) k then (k, v) else p) m) = map fst m).
    { rewrite map_map. apply map_ext. intro p. destruct (eqb (fst p) k) eqn:Ep; [apply eqb_spec in Ep; auto|reflexivity]. }
    rewrite M. exact H.
  - rewrite map_app. cbn [map fst]. apply NoDup_snoc; [exact H|]. intro I. apply in_map_iff in I.
    destruct I as (p & Ep & Ip).
    assert (X : existsb (fun p => eqb (fst p) k) m = true)
      by (apply existsb_exists; exists p; split; [exact Ip|apply eqb_spec; exact Ep]).
    congruence.
Qed.
Lemma gdel_keys m k : NoDup (map fst m) -> NoDup (map fst (gdel m k)).
Proof.
  unfold gdel. induction m as [|q m IH]; intro H; [constructor|]. cbn [map] in H. inversion H as [|? ? Hq Hm]; subst.
  cbn [filter]. destruct (negb (eqb (fst q) k)); [|apply IH; exact Hm].
  cbn [map]. constructor; [|apply IH; exact Hm]. intro I. apply Hq. apply in_map_iff in I. destruct I as (x & Ex & Ix).
  apply filter_In in Ix. apply in_map_iff. exists x. tauto.
Qed.
Lemma glook_cons_nodup (k : K) (v : V) m : NoDup (map fst ((k, v) :: m)) -> glook m k = None.
Proof.
  intro H. cbn [map fst] in H. inversion H as [|? ? Hk _]; subst. apply glook_none.
  destruct (existsb (fun p => eqb (fst p) k) m) eqn:E; [|reflexivity].
  exfalso. apply Hk. apply existsb_exists in E. destruct E as (x & Ix & Ex). apply eqb_spec in Ex. apply in_map_iff.
  exists x. auto.
Qed.
End Assoc.

Definition str_spec := seq_eq_spec.
(* the model's three maps are instances, up to conversion: plook/pset/pdel at keys [str], nlook/nset and tset at keys [nat] *)
Lemma plook_pset m n v k : plook (pset m n v) k = if seq_eq k n then Some v else plook m k.
Proof. exact (glook_gset _ _ _ seq_eq_spec m n v k). Qed.
Lemma plook_pdel m n k : plook (pdel m n) k = if seq_eq k n then None else plook m k.
Proof. exact (glook_gdel _ _ _ seq_eq_spec m n k). Qed.
Lemma nlook_nset m t v t' : nlook (nset m t v) t' = if t' =? t then Some v else nlook m t'.
Proof. exact (glook_gset _ _ _ Nat.eqb_eq m t v t'). Qed.
Lemma nlook_filter m t t' : nlook (filter (fun p => negb (fst p =? t)) m) t' = if t' =? t then None else nlook m t'.
Proof. exact (glook_gdel _ _ _ Nat.eqb_eq m t t'). Qed.
Lemma pset_keys m k v : NoDup (map fst m) -> NoDup (map fst (pset m k v)).
Proof. exact (gset_keys _ _ _ seq_eq_spec m k v). Qed.
Lemma pdel_keys m k : NoDup (map fst m) -> NoDup (map fst (pdel m k)).
Proof. exact (gdel_keys _ _ seq_eq m k). Qed.
Lemma plook_cons_nodup k v m : NoDup (map fst ((k, v) :: m)) -> plook m k = None.
Proof. exact (glook_cons_nodup _ _ _ seq_eq_spec k v m). Qed.

(* the priority of a target in a target set: its last binding wins, as in a Go map written in list order *)
Fixpoint tlast (s : list (nat * Z)) (t : nat) : option Z :=
  match s with [] => None | p :: r => match tlast r t with Some x => Some x | None => if fst p =? t then Some (snd p) else None end end.
Lemma tlast_app s1 s2 t : tlast (s1 ++ s2) t = match tlast s2 t with Some x => Some x | None => tlast s1 t end.
Proof.
  induction s1 as [|p s1 IH]; cbn [app tlast]; [destruct (tlast s2 t); reflexivity|]. rewrite IH.
  destruct (tlast s2 t); reflexivity.
Qed.
Lemma tlast_replace s t pr t' :
  tlast (map (fun p => if fst p =? t then (t, pr) else p) s) t' =
  if t' =? t then (if existsb (fun p => fst p =? t) s then Some pr else None) else tlast s t'.
Proof.
  induction s as [|p s IH]; [destruct (t' =? t); reflexivity|]. cbn [map tlast existsb]. rewrite IH.
  destruct (t' =? t) eqn:Et; [apply Nat.eqb_eq in Et; subst t'|]; destruct (fst p =? t) eqn:Ep; cbn [fst snd orb].
  - rewrite Nat.eqb_refl. destruct (existsb _ s); reflexivity.
  - rewrite Ep. destruct (existsb _ s); reflexivity.
  - apply Nat.eqb_eq in Ep. rewrite Ep, (Nat.eqb_sym t t'), Et. reflexivity.
  - reflexivity.
Qed.
Lemma tlast_tset s t pr t' : tlast (tset s t pr) t' = if t' =? t then Some pr else tlast s t'.
Proof.
  unfold tset. destruct (existsb (fun p => fst p =? t) s) eqn:E; [rewrite tlast_replace, E; reflexivity|].
  rewrite tlast_app. cbn [tlast fst snd]. rewrite (Nat.eqb_sym t t'). destruct (t' =? t); reflexivity.
Qed.
Lemma tlast_filter s t t' : tlast (filter (fun p => negb (fst p =? t)) s) t' = if t' =? t then None else tlast s t'.
Proof.
  induction s as [|p s IH]; [destruct (t' =? t); reflexivity|]. cbn [filter tlast]. destruct (fst p =? t) eqn:Ep; cbn [negb].
  - rewrite IH. destruct (t' =? t) eqn:Et; [reflexivity|]. destruct (tlast s t'); [reflexivity|].
    apply Nat.eqb_eq in Ep. rewrite Ep, (Nat.eqb_sym t t'), Et. reflexivity.
  - cbn [tlast]. rewrite IH. destruct (t' =? t) eqn:Et; [|reflexivity]. apply Nat.eqb_eq in Et. subst t'. rewrite Ep.
    reflexivity.
Qed.
Lemma tset_keys s t pr : NoDup (map fst s) -> NoDup (map fst (tset s t pr)).
Proof. exact (gset_keys _ _ _ Nat.eqb_eq s t pr). Qed.

Definition Rp (pm : pmap) (nm : str) (t : nat) : option Z := match plook pm nm with Some set => tlast set t | None => None end.
Definition R (n : notifier) := Rp (prod n).
(* most specific ancestor wins: ancestors are listed from the shortest to the longest *)
Definition msp (r : str -> nat -> option Z) (ancs : list str) (t : nat) : option Z :=
  fold_left (fun a pre => match r pre t with Some x => Some x | None => a end) ancs None.
Definition ancestors (name : str) : list str := map (fun k => join (firstn k (segs name []))) (seq 1 (length (segs name []))).

Lemma fold_tset_last set : forall acc t,
  tlast (fold_left (fun a p => tset a (fst p) (snd p)) set acc) t = match tlast set t with Some x => Some x | None => tlast acc t end.
Proof.
  induction set as [|p set IH]; intros acc t; [reflexivity|]. cbn [fold_left tlast]. rewrite IH, tlast_tset.
  destruct (tlast set t); [reflexivity|].
  rewrite Nat.eqb_sym. destruct (fst p =? t); reflexivity.
Qed.
Lemma fold_tset_keys set : forall acc, NoDup (map fst acc) ->
  NoDup (map fst (fold_left (fun a p => tset a (fst p) (snd p)) set acc)).
Proof. apply (fold_left_inv (fun a => NoDup (map fst a))). intros a p. apply tset_keys. Qed.
Definition nstep (pm : pmap) (acc : list (nat * Z)) (pre : str) :=
  match plook pm pre with Some set => fold_left (fun a p => tset a (fst p) (snd p)) set acc | None => acc end.
Lemma notify_fold_last pm ancs : forall acc t,
  tlast (fold_left (nstep pm) ancs acc) t =
  fold_left (fun a pre => match Rp pm pre t with Some x => Some x | None => a end) ancs (tlast acc t).
Proof.
  induction ancs as [|a ancs IH]; intros acc t; [reflexivity|]. cbn [fold_left]. rewrite IH. f_equal. unfold nstep, Rp.
  destruct (plook pm a) as [set|]; [apply fold_tset_last|reflexivity].
Qed.
Lemma notify_fold_keys pm ancs : forall acc, NoDup (map fst acc) -> NoDup (map fst (fold_left (nstep pm) ancs acc)).
Proof.
  apply (fold_left_inv (fun a => NoDup (map fst a))). intros acc a H. unfold nstep.
  destruct (plook pm a); [apply fold_tset_keys; exact H|exact H].
Qed.
Lemma tlast_in s : NoDup (map fst s) -> forall t p, In (t, p) s <-> tlast s t = Some p.
Proof.
  induction s as [|q s IH]; intros H t p; [cbn; split; [intros []|discriminate]|]. cbn [map] in H.
  inversion H as [|? ? Hq Hs]; subst. cbn [In tlast]. rewrite (IH Hs).
  destruct (tlast s t) as [x|] eqn:E.
  - split; [intros [->|I]; [|exact I]|intro I; right; exact I]. exfalso. apply Hq. apply (IH Hs) in E. apply in_map_iff.
    exists (t, x). split; [reflexivity|exact E].
  - destruct q as [t0 p0]. cbn [fst snd]. destruct (t0 =? t) eqn:Et.
    + apply Nat.eqb_eq in Et. subst t0.
      split; [intros [I|I]; [injection I; intros; subst; reflexivity|discriminate]
             |intro I; injection I; intros; subst; left; reflexivity].
    + split; [intros [I|I]; [injection I; intros; subst; rewrite Nat.eqb_refl in Et; discriminate|discriminate]|discriminate].
Qed.

Theorem notify_exact n name : enabled n = true -> segs name [] <> [] ->
  NoDup (map fst (notify n name)) /\ forall t p, In (t, p) (notify n name) <-> msp (R n) (ancestors name) t = Some p.
Proof.
  intros He Hs. rewrite (notify_consults_ancestors n name He Hs). fold (ancestors name).
  change (fold_left _ (ancestors name) []) with (fold_left (nstep (prod n)) (ancestors name) []).
  assert (K : NoDup (map fst (fold_left (nstep (prod n)) (ancestors name) []))) by (apply notify_fold_keys; constructor).
  split; [exact K|]. intros t p. rewrite (tlast_in _ K). rewrite notify_fold_last. reflexivity.
Qed.

(* dropping a name is stated as replacing its set by the empty one ([tlast [] t'] is [None]), so that both branches of [ustep] meet
   [tlast_filter] in the same form *)
Lemma Rp_pset pm nm s nm' t' : Rp (pset pm nm s) nm' t' = if seq_eq nm' nm then tlast s t' else Rp pm nm' t'.
Proof. unfold Rp. rewrite plook_pset. destruct (seq_eq nm' nm); reflexivity. Qed.
Lemma Rp_pdel pm nm nm' t' : Rp (pdel pm nm) nm' t' = if seq_eq nm' nm then tlast [] t' else Rp pm nm' t'.
Proof. unfold Rp. rewrite plook_pdel. destruct (seq_eq nm' nm); reflexivity. Qed.

Lemma Rp_drop pm nm s nm' t' :
  Rp (match s with [] => pdel pm nm | _ => pset pm nm s end) nm' t' = if seq_eq nm' nm then tlast s t' else Rp pm nm' t'.
Proof. destruct s; [apply Rp_pdel|apply Rp_pset]. Qed.

Definition clean (nms : list str) : list str := filter (fun s => match s with [] => false | _ => true end) (map normalize nms).
Definition rstep (t : nat) (pr : Z) (pm : pmap) (nm : str) :=
  pset pm nm (tset (match plook pm nm with Some s => s | None => [] end) t pr).
Lemma Rp_rstep t pr pm nm nm' t' : Rp (rstep t pr pm nm) nm' t' = if seq_eq nm' nm && (t' =? t) then Some pr else Rp pm nm' t'.
Proof.
  unfold rstep. rewrite Rp_pset. destruct (seq_eq nm' nm) eqn:E; [|reflexivity]. apply seq_eq_spec in E. subst nm'.
  rewrite tlast_tset. cbn [andb].
  destruct (t' =? t); [reflexivity|]. unfold Rp. destruct (plook pm nm); reflexivity.
Qed.
Lemma Rp_fold_point (f : pmap -> str -> pmap) t (v : option Z) :
  (forall pm nm nm' t', Rp (f pm nm) nm' t' = if seq_eq nm' nm && (t' =? t) then v else Rp pm nm' t') ->
  forall nn pm nm' t', Rp (fold_left f nn pm) nm' t' = if existsb (seq_eq nm') nn && (t' =? t) then v else Rp pm nm' t'.
Proof.
  intro Hf. induction nn as [|nm nn IH]; intros pm nm' t'; [reflexivity|]. cbn [fold_left existsb]. rewrite IH, Hf.
  destruct (existsb (seq_eq nm') nn), (seq_eq nm' nm), (t' =? t); reflexivity.
Qed.
Lemma reg_fold_fst t pr nn : forall pm tn,
  fold_left (fun '(pm, tn) nm => let set := match plook pm nm with Some s => s | None => [] end in
            (pset pm nm (tset set t pr), sadd tn nm)) nn (pm, tn)
  = (fold_left (rstep t pr) nn pm, fold_left sadd nn tn).
Proof. induction nn as [|nm nn IH]; intros pm tn; [reflexivity|]. cbn [fold_left]. rewrite IH. reflexivity. Qed.

Definition listed (m : nmap) (t : nat) (x : str) : Prop := exists l, nlook m t = Some l /\ In x l.
Lemma sadd_in l n x : In x (sadd l n) <-> In x l \/ x = n.
Proof.
  unfold sadd. destruct (existsb (seq_eq n) l) eqn:E.
  - split; [auto|]. intros [I| ->]; [exact I|apply existsb_seq_eq, E].
  - rewrite in_app_iff. cbn [In]. intuition.
Qed.
Lemma fold_sadd_in nn : forall l x, In x (fold_left sadd nn l) <-> In x l \/ In x nn.
Proof. induction nn as [|n nn IH]; intros l x; cbn [fold_left In]; [tauto|]. rewrite IH, sadd_in. intuition. Qed.

(* of the by-target map only the direction [Inv] needs *)
Lemma register_fields isB n t pr nms :
  prod (register isB n t pr nms) = fold_left (rstep t pr) (clean nms) (prod n) /\
  enabled (register isB n t pr nms) = enabled n /\
  forall t' x, listed (names n) t' x \/ (t' = t /\ In x (clean nms)) -> listed (names (register isB n t pr nms)) t' x.
Proof.
  unfold register. fold (clean nms). destruct (clean nms) as [|c0 cr] eqn:E.
  - split; [reflexivity|]. split; [reflexivity|]. intros t' x [H|[_ []]]. exact H.
  - rewrite <- E, reg_fold_fst. cbn [prod names enabled]. split; [reflexivity|]. split; [reflexivity|].
    intros t' x H. unfold listed. rewrite nlook_nset. destruct (t' =? t) eqn:Et.
    + apply Nat.eqb_eq in Et. subst t'. eexists. split; [reflexivity|]. apply fold_sadd_in.
      destruct H as [(l & L & Il)|[_ Ix]]; [left; rewrite L; exact Il|right; exact Ix].
    + destruct H as [H|[-> _]]; [exact H|rewrite Nat.eqb_refl in Et; discriminate].
Qed.
Theorem register_R isB n t pr nms nm' t' :
  R (register isB n t pr nms) nm' t' = if existsb (seq_eq nm') (clean nms) && (t' =? t) then Some pr else R n nm' t'.
Proof. unfold R. rewrite (proj1 (register_fields isB n t pr nms)). apply Rp_fold_point, Rp_rstep. Qed.

(* R n nm t <> None -> listed (names n) t nm, written out *)
Definition Inv (n : notifier) : Prop := forall t nm, R n nm t <> None -> exists l, nlook (names n) t = Some l /\ In nm l.
Lemma inv_register isB n t pr nms : Inv n -> Inv (register isB n t pr nms).
Proof.
  intros HI t' nm' H. rewrite register_R in H. apply (proj2 (proj2 (register_fields isB n t pr nms))).
  destruct (existsb (seq_eq nm') (clean nms) && (t' =? t)) eqn:Ex; [right|left; exact (HI t' nm' H)].
  apply andb_prop in Ex. destruct Ex as [Ex Et]. split; [apply Nat.eqb_eq, Et|apply existsb_seq_eq, Ex].
Qed.

Definition ustep (t : nat) (pm : pmap) (nm : str) := match plook pm nm with
  | Some set => let set' := filter (fun p => negb (fst p =? t)) set in match set' with [] => pdel pm nm | _ => pset pm nm set' end
  | None => pm end.
Lemma Rp_ustep t pm nm nm' t' : Rp (ustep t pm nm) nm' t' = if seq_eq nm' nm && (t' =? t) then None else Rp pm nm' t'.
Proof.
  unfold ustep. destruct (plook pm nm) as [set|] eqn:L.
  - cbv zeta. rewrite Rp_drop. destruct (seq_eq nm' nm) eqn:E; [|reflexivity]. apply seq_eq_spec in E. subst nm'. rewrite tlast_filter.
    unfold Rp. rewrite L. reflexivity.
  - unfold Rp. destruct (seq_eq nm' nm) eqn:E; [|reflexivity]. apply seq_eq_spec in E. subst nm'. rewrite L.
    destruct (t' =? t); reflexivity.
Qed.
Lemma unregister_fields isB n t :
  prod (unregister isB n t) = fold_left (ustep t) (match nlook (names n) t with Some l => l | None => [] end) (prod n) /\
  enabled (unregister isB n t) = enabled n /\
  forall t' x, (t' =? t) = false -> listed (names n) t' x -> listed (names (unregister isB n t)) t' x.
Proof.
  unfold unregister. destruct (nlook (names n) t); cbn [prod enabled names fold_left]; repeat split; auto.
  intros t' x Et. unfold listed. rewrite nlook_filter, Et. auto.
Qed.
(* the names to clear are those the by-target map lists for t: by [Inv] they cover every registration of t *)
Theorem unregister_R isB n t nm' t' : Inv n -> R (unregister isB n t) nm' t' = if t' =? t then None else R n nm' t'.
Proof.
  intros HI. unfold R. rewrite (proj1 (unregister_fields isB n t)), (Rp_fold_point _ t None (Rp_ustep t)).
  destruct (t' =? t) eqn:Et; [|rewrite andb_false_r; reflexivity]. apply Nat.eqb_eq in Et. subst t'. rewrite andb_true_r.
  destruct (Rp (prod n) nm' t) eqn:ER;
    [|destruct (existsb (seq_eq nm') (match nlook (names n) t with Some l => l | None => [] end)); reflexivity].
  destruct (HI t nm' ltac:(unfold R; rewrite ER; discriminate)) as (l & L & Il). rewrite L. apply existsb_seq_eq in Il.
  rewrite Il. reflexivity.
Qed.
Lemma inv_unregister isB n t : Inv n -> Inv (unregister isB n t).
Proof.
  intros HI t' nm' H. rewrite unregister_R in H by exact HI. destruct (t' =? t) eqn:Et; [congruence|].
  exact (proj2 (proj2 (unregister_fields isB n t)) t' nm' Et (HI t' nm' H)).
Qed.
Lemma R_reset n nm t : R (reset n) nm t = None. Proof. reflexivity. Qed.
Lemma inv_reset n : Inv (reset n). Proof. intros t nm H. rewrite R_reset in H. congruence. Qed.
Lemma inv_new : Inv new. Proof. intros t nm H. exfalso. apply H. reflexivity. Qed.

(* [KU n]: names are unique in the by-name map; the merge reads the other notifier's map row by row, and a second row for a name
   would override the first *)
Definition KU (n : notifier) : Prop := NoDup (map fst (prod n)).
Definition mstep (pm : pmap) (p : str * list (nat * Z)) : pmap :=
  match plook pm (fst p) with
  | Some mine => pset pm (fst p) (fold_left (fun a q => tset a (fst q) (snd q)) (snd p) mine)
  | None => pset pm (fst p) (snd p) end.
Lemma Rp_mstep pm k s nm t :
  Rp (mstep pm (k, s)) nm t = if seq_eq nm k then (match tlast s t with Some x => Some x | None => Rp pm k t end) else Rp pm nm t.
Proof.
  unfold mstep. cbn [fst snd].
  destruct (plook pm k) as [mine|] eqn:L; rewrite Rp_pset; destruct (seq_eq nm k); try reflexivity; unfold Rp; rewrite L.
  - apply fold_tset_last.
  - destruct (tlast s t); reflexivity.
Qed.
Lemma Rp_cons k s l nm t : Rp ((k, s) :: l) nm t = if seq_eq nm k then tlast s t else Rp l nm t.
Proof. unfold Rp, plook. cbn [find fst snd]. rewrite (seq_eq_sym k nm). destruct (seq_eq nm k); reflexivity. Qed.
Lemma Rp_fold_mstep l : forall pm nm t, NoDup (map fst l) ->
  Rp (fold_left mstep l pm) nm t = match Rp l nm t with Some x => Some x | None => Rp pm nm t end.
Proof.
  induction l as [|[k s] l IH]; intros pm nm t H; [reflexivity|]. cbn [fold_left].
  rewrite IH by (cbn [map] in H; inversion H; assumption). rewrite Rp_mstep, Rp_cons.
  destruct (seq_eq nm k) eqn:E; [|reflexivity].
  apply seq_eq_spec in E. subst nm. unfold Rp at 1. rewrite (plook_cons_nodup k s l H). reflexivity.
Qed.
Theorem register_from_R n other nm t : KU other ->
  R (register_from n other) nm t = match R other nm t with Some x => Some x | None => R n nm t end.
Proof.
  intro H. unfold R, register_from. cbn [prod].
  change (fold_left _ (prod other) (prod n)) with (fold_left mstep (prod other) (prod n)). apply Rp_fold_mstep. exact H.
Qed.

Lemma ku_register isB n t pr nms : KU n -> KU (register isB n t pr nms).
Proof.
  unfold KU. rewrite (proj1 (register_fields isB n t pr nms)). apply (fold_left_inv (fun pm => NoDup (map fst pm))).
  intros pm a. apply pset_keys.
Qed.
Lemma ku_unregister isB n t : KU n -> KU (unregister isB n t).
Proof.
  unfold KU. rewrite (proj1 (unregister_fields isB n t)). apply (fold_left_inv (fun pm => NoDup (map fst pm))).
  intros pm a Hp. unfold ustep.
  destruct (plook pm a); [|exact Hp]. destruct (filter _ _); [apply pdel_keys|apply pset_keys]; exact Hp.
Qed.
Lemma ku_register_from n other : KU n -> KU (register_from n other).
Proof.
  unfold KU, register_from. cbn [prod]. apply (fold_left_inv (fun pm => NoDup (map fst pm))). intros pm a Hp.
  destruct (plook pm (fst a)); apply pset_keys, Hp.
Qed.

Definition nmstep (nm : nmap) (p : nat * list str) : nmap :=
  match nlook nm (fst p) with Some mine => nset nm (fst p) (fold_left sadd (snd p) mine) | None => nset nm (fst p) (snd p) end.
Lemma nmstep_mono nm p t x : listed nm t x -> listed (nmstep nm p) t x.
Proof.
  intros (l & L & I). unfold nmstep, listed.
  destruct (nlook nm (fst p)) as [mine|] eqn:Lp; rewrite nlook_nset; destruct (t =? fst p) eqn:Et;
    try (exists l; split; [exact L|exact I]).
  - apply Nat.eqb_eq in Et. subst t. rewrite L in Lp. injection Lp as <-. eexists. split; [reflexivity|].
    apply fold_sadd_in. left. exact I.
  - apply Nat.eqb_eq in Et. subst t. congruence.
Qed.
Lemma nmstep_adds nm t l x : In x l -> listed (nmstep nm (t, l)) t x.
Proof.
  intro I. unfold nmstep, listed. cbn [fst snd].
  destruct (nlook nm t) as [mine|]; rewrite nlook_nset, Nat.eqb_refl; eexists;
    (split; [reflexivity|]); [apply fold_sadd_in; right; exact I|exact I].
Qed.
Lemma fold_nmstep lst : forall nm t x, listed nm t x \/ (exists l, In (t, l) lst /\ In x l) ->
  listed (fold_left nmstep lst nm) t x.
Proof.
  induction lst as [|p lst IH]; intros nm t x H; cbn [fold_left].
  - destruct H as [H|(l & [] & _)]. exact H.
  - apply IH. destruct H as [H|(l & [E|I] & Ix)].
    + left. apply nmstep_mono. exact H.
    + left. subst p. apply nmstep_adds. exact Ix.
    + right. exists l. auto.
Qed.
Lemma inv_register_from n other : Inv n -> Inv other -> KU other -> Inv (register_from n other).
Proof.
  intros Hn Ho Ku t nm H. rewrite register_from_R in H by exact Ku. unfold register_from. cbn [names].
  change (fold_left _ (names other) (names n)) with (fold_left nmstep (names other) (names n)).
  apply fold_nmstep. destruct (R other nm t) eqn:E.
  - right. destruct (Ho t nm ltac:(rewrite E; discriminate)) as (l & L & I). exists l. split; [|exact I]. unfold nlook in L.
    destruct (find (fun p => fst p =? t) (names other)) as [[t0 l0]|] eqn:F; [|discriminate]. injection L as <-.
    apply find_some in F. destruct F as [F Ft]. cbn [fst] in Ft. apply Nat.eqb_eq in Ft. subst t0. exact F.
  - left. apply Hn. exact H.
Qed.

Record sspec := { sreg : str -> nat -> option Z; sen : bool }.
Definition sinit := {| sreg := fun _ _ => None; sen := true |}.
Definition sstep (ab : sspec * sspec) (o : op) : sspec * sspec :=
  let '(a, b) := ab in
  let pick w := if w =? 0 then a else b in
  let put w x := if w =? 0 then (x, b) else (a, x) in
  match o with
  | OReg w t pr nms => put w {| sreg := fun nm' t' => if existsb (seq_eq nm') (clean nms) && (t' =? t) then Some pr else sreg (pick w) nm' t'; sen := sen (pick w) |}
  | OFrom w => put w {| sreg := fun nm t => match sreg (pick (1 - w)) nm t with Some x => Some x | None => sreg (pick w) nm t end; sen := sen (pick w) |}
  | OUnreg w t => put w {| sreg := fun nm t' => if t' =? t then None else sreg (pick w) nm t'; sen := sen (pick w) |}
  | OEnable w e => put w {| sreg := sreg (pick w); sen := e |}
  | OReset w => put w {| sreg := fun _ _ => None; sen := sen (pick w) |}
  | ONotify _ _ | OStart _ | OEnd _ => ab
  end.
Definition out_ok (ab : sspec * sspec) (o : op) (x : out) : Prop :=
  match o, x with
  | ONotify w nm, OTargets l =>
      let a := if w =? 0 then fst ab else snd ab in
      if sen a && negb (match segs nm [] with [] => true | _ => false end)
      then NoDup (map fst l) /\ forall t p, In (t, p) l <-> msp (sreg a) (ancestors nm) t = Some p
      else l = []
  | ONotify _ _, _ => False
  | _, _ => True
  end.
Definition rel1 (n : notifier) (a : sspec) : Prop := Inv n /\ KU n /\ (forall nm t, R n nm t = sreg a nm t) /\ enabled n = sen a.
Definition rel (s : notifier * notifier) (ab : sspec * sspec) : Prop := rel1 (fst s) (fst ab) /\ rel1 (snd s) (snd ab).

Lemma msp_ext r r' ancs t : (forall nm t, r nm t = r' nm t) -> msp r ancs t = msp r' ancs t.
Proof.
  intro H. unfold msp. generalize (@None Z). induction ancs as [|a ancs IH]; intro acc; [reflexivity|]. cbn [fold_left].
  rewrite H. apply IH.
Qed.
Lemma rel1_notify n a nm : rel1 n a ->
  if sen a && negb (match segs nm [] with [] => true | _ => false end)
  then NoDup (map fst (notify n nm)) /\ forall t p, In (t, p) (notify n nm) <-> msp (sreg a) (ancestors nm) t = Some p
  else notify n nm = [].
Proof.
  intros (_ & _ & HR & He). rewrite <- He. destruct (enabled n) eqn:E; [|apply notify_disabled, E].
  destruct (segs nm []) as [|s0 sg] eqn:Es; cbn [andb negb]; [apply notify_empty_name; exact Es|].
  destruct (notify_exact n nm E ltac:(rewrite Es; discriminate)) as [K M]. split; [exact K|]. intros t p. rewrite M.
  rewrite (msp_ext (R n) (sreg a)) by exact HR. reflexivity.
Qed.
(* [sstep] is read at notifier 0 of a pair; the other member matters to OFrom only *)
Lemma rel1_register isB n a t pr nms : rel1 n a -> rel1 (register isB n t pr nms) (fst (sstep (a, a) (OReg 0 t pr nms))).
Proof.
  intros (I & K & HR & He). split; [apply inv_register, I|]. split; [apply ku_register, K|]. split.
  - intros nm' t'. rewrite register_R, HR. reflexivity.
  - cbn [sstep Nat.eqb fst sen]. rewrite <- He. exact (proj1 (proj2 (register_fields isB n t pr nms))).
Qed.
Lemma rel1_register_from n o a b : rel1 n a -> rel1 o b -> rel1 (register_from n o) (fst (sstep (a, b) (OFrom 0))).
Proof.
  intros (I & K & HR & He) (I' & K' & HR' & _). split; [apply inv_register_from; assumption|].
  split; [apply ku_register_from, K|]. split; [|exact He].
  intros nm t. rewrite register_from_R, HR, HR' by exact K'. reflexivity.
Qed.
Lemma rel1_unregister isB n a t : rel1 n a -> rel1 (unregister isB n t) (fst (sstep (a, a) (OUnreg 0 t))).
Proof.
  intros (I & K & HR & He). split; [apply inv_unregister, I|]. split; [apply ku_unregister, K|]. split.
  - intros nm t'. rewrite unregister_R, HR by exact I. reflexivity.
  - cbn [sstep Nat.eqb fst sen]. rewrite <- He. exact (proj1 (proj2 (unregister_fields isB n t))).
Qed.
Lemma rel1_set_enabled n a e : rel1 n a -> rel1 (set_enabled n e) (fst (sstep (a, a) (OEnable 0 e))).
Proof. intros (I & K & HR & _). repeat split; assumption. Qed.
Lemma rel1_reset n a : rel1 n a -> rel1 (reset n) (fst (sstep (a, a) (OReset 0))).
Proof. intros (_ & _ & _ & He). split; [apply inv_reset|]. split; [constructor|]. split; [reflexivity|exact He]. Qed.
Lemma rel1_new : rel1 new sinit.
Proof. split; [apply inv_new|]. split; [constructor|]. split; reflexivity. Qed.
Lemma rel1_fields n n' a : prod n' = prod n -> names n' = names n -> enabled n' = enabled n -> rel1 n a -> rel1 n' a.
Proof. intros P N E (I & K & HR & He). unfold rel1, Inv, KU, R in *. rewrite P, N, E. auto. Qed.
Lemma rel1_start n a : rel1 n a -> rel1 (fst (start_batch n)) a.
Proof.
  apply rel1_fields; unfold start_batch; destruct (enabled n) eqn:E; try reflexivity;
    destruct (level n); destruct (batchT n); cbn; auto.
Qed.
Lemma rel1_end n a : rel1 n a -> rel1 (fst (end_batch n)) a.
Proof.
  apply rel1_fields; unfold end_batch; destruct (enabled n) eqn:E; cbn [andb]; try reflexivity;
    destruct (0 <? level n); try reflexivity; destruct (pred (level n)); cbn; auto.
Qed.

Lemma step_refines s ab o : rel s ab -> rel (fst (step s o)) (sstep ab o) /\ out_ok ab o (snd (step s o)).
Proof.
  destruct s as [na nb], ab as [a b]. intros [Ra Rb]. cbn [fst snd] in Ra, Rb.
  assert (PK : forall w, rel1 (if w =? 0 then na else nb) (if w =? 0 then a else b)) by (intro w; destruct (w =? 0); assumption).
  assert (PUT : forall w n' a', rel1 n' a' ->
                rel (if w =? 0 then (n', nb) else (na, n')) (if w =? 0 then (a', b) else (a, a')))
    by (intros w n' a' H; destruct (w =? 0); split; assumption).
  destruct o as [w t pr nms|w|w t|w e|w|w nm|w|w]; cbn [step sstep fst snd].
  - split; [apply PUT, rel1_register, PK|exact I].
  - split; [apply PUT, rel1_register_from; apply PK|exact I].
  - split; [apply PUT, rel1_unregister, PK|exact I].
  - split; [apply PUT, rel1_set_enabled, PK|exact I].
  - split; [apply PUT, rel1_reset, PK|exact I].
  - split; [split; assumption|exact (rel1_notify _ _ nm (PK w))].
  - pose proof (rel1_start _ _ (PK w)) as S1. destruct (start_batch (if w =? 0 then na else nb)) as [x l].
    cbn [fst snd] in *. split; [destruct (w =? 0); split; assumption|exact I].
  - pose proof (rel1_end _ _ (PK w)) as S1. destruct (end_batch (if w =? 0 then na else nb)) as [x l].
    cbn [fst snd] in *. split; [destruct (w =? 0); split; assumption|exact I].
Qed.

Fixpoint go (s : notifier * notifier) (ops : list op) : list out :=
  match ops with [] => [] | o :: r => let '(s', x) := step s o in x :: go s' r end.
Lemma run_go ops : run ops = go (new, new) ops. Proof. reflexivity. Qed.
Fixpoint outs_ok (ab : sspec * sspec) (ops : list op) (outs : list out) : Prop :=
  match ops, outs with
  | [], [] => True
  | o :: r, x :: xs => out_ok ab o x /\ outs_ok (sstep ab o) r xs
  | _, _ => False
  end.
Lemma go_refines ops : forall s ab, rel s ab -> outs_ok ab ops (go s ops).
Proof.
  induction ops as [|o ops IH]; intros s ab H; [exact I|]. cbn [go]. destruct (step_refines s ab o H) as [H1 H2].
  destruct (step s o) as [s' x]. cbn [fst snd] in *.
  cbn [outs_ok]. split; [exact H2|apply IH; exact H1].
Qed.
Theorem history_refines ops : outs_ok (sinit, sinit) ops (run ops).
Proof. rewrite run_go. apply go_refines. split; apply rel1_new. Qed.
