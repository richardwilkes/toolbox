From Coq Require Import QArith List Bool Lqa.
From Verif Require Import C18.Model.
Import ListNotations.
Open Scope Q_scope.

Lemma Qle_bool_false x y : Qle_bool x y = false <-> y < x.
Proof.
  split.
  - intro H. apply Qnot_le_lt. intro L. apply Qle_bool_iff in L. congruence.
  - intro H. destruct (Qle_bool x y) eqn:E; auto. apply Qle_bool_iff in E. exfalso. apply (Qlt_not_le _ _ H E).
Qed.
Lemma Qltb_iff x y : Qltb x y = true <-> x < y.
Proof. unfold Qltb. rewrite negb_true_iff. apply Qle_bool_false. Qed.

Lemma qminmax_cases a b : (a <= b /\ qmin a b == a /\ qmax a b == b) \/ (b < a /\ qmin a b == b /\ qmax a b == a).
Proof.
  unfold qmin, qmax. destruct (Qle_bool a b) eqn:E; [left; apply Qle_bool_iff in E | right; apply Qle_bool_false in E];
    (split; [exact E|split; reflexivity]).
Qed.

Definition in_rect (px py : Q) (r : rect) : Prop := pt_in px py r = true.
Definition NonEmpty (r : rect) : Prop := empty r = false.

Lemma nonempty_iff r : NonEmpty r <-> 0 < rw r /\ 0 < rh r.
Proof. unfold NonEmpty, empty. rewrite orb_false_iff, !Qle_bool_false. tauto. Qed.

Lemma guard_iff (c x : bool) : (if c then false else x) = true <-> c = false /\ x = true.
Proof. destruct c; intuition discriminate. Qed.

(* a rectangle is a product of two half-open segments [a, a + w), and a segment with a point in it has 0 < w; the point-set
   facts are proved for one axis and used twice *)
Definition seg (a w p : Q) : Prop := a <= p /\ p < a + w.

Lemma in_iff px py r : in_rect px py r <-> seg (rx r) (rw r) px /\ seg (ry r) (rh r) py.
Proof.
  unfold in_rect, pt_in, right, bottom, seg. rewrite guard_iff, !andb_true_iff, !Qle_bool_iff, !Qltb_iff. fold (NonEmpty r). rewrite nonempty_iff. lra.
Qed.

Lemma contains_iff_coords r i : contains r i = true <->
  0 < rw r /\ 0 < rh r /\ 0 < rw i /\ 0 < rh i /\ rx r <= rx i /\ ry r <= ry i /\ rx i + rw i <= rx r + rw r /\ ry i + rh i <= ry r + rh r.
Proof.
  unfold contains, right, bottom. rewrite guard_iff, orb_false_iff, !andb_true_iff, !Qle_bool_iff.
  fold (NonEmpty r) (NonEmpty i). rewrite !nonempty_iff. tauto.
Qed.

Lemma seg_incl a w b v : 0 < w -> (forall p, seg a w p -> seg b v p) -> b <= a /\ a + w <= b + v.
Proof.
  unfold seg. intros Hw H. split; [destruct (H a); lra|]. apply Qnot_lt_le. intro L.
  pose proof (qminmax_cases a (b + v)). destruct (H (qmax a (b + v))); lra.
Qed.
Lemma seg_meet a w b v p : seg (qmax a b) (qmin (a + w) (b + v) - qmax a b) p <-> seg a w p /\ seg b v p.
Proof. unfold seg. pose proof (qminmax_cases a b). pose proof (qminmax_cases (a + w) (b + v)). lra. Qed.
Lemma seg_overlap a w b v : 0 < w -> 0 < v -> a < b + v -> b < a + w -> seg a w (qmax a b) /\ seg b v (qmax a b).
Proof. unfold seg. pose proof (qminmax_cases a b). lra. Qed.

Theorem contains_spec r i : contains r i = true <-> NonEmpty i /\ forall px py, in_rect px py i -> in_rect px py r.
Proof.
  rewrite contains_iff_coords, nonempty_iff. split.
  - intro H. split; [tauto|]. intros px py. rewrite !in_iff. unfold seg. lra.
  - intros [[C D] H].
    assert (P : forall px py, seg (rx i) (rw i) px -> seg (ry i) (rh i) py -> seg (rx r) (rw r) px /\ seg (ry r) (rh r) py)
      by (intros; apply in_iff, H, in_iff; auto).
    destruct (seg_incl (rx i) (rw i) (rx r) (rw r) C); [intros p Hp; apply (P p (ry i) Hp); unfold seg; lra|].
    destruct (seg_incl (ry i) (rh i) (ry r) (rh r) D); [intros p Hp; apply (P (rx i) p); [unfold seg; lra|exact Hp]|]. lra.
Qed.

Lemma contains_refl a : empty a = false -> contains a a = true.
Proof. intro H. apply nonempty_iff in H. apply contains_iff_coords. lra. Qed.
Lemma contains_trans a b c : contains a b = true -> contains b c = true -> contains a c = true.
Proof. rewrite !contains_spec. intros [_ H1] [N H2]. auto. Qed.
Lemma contains_nonempty a b : contains a b = true -> empty a = false /\ empty b = false.
Proof. rewrite contains_iff_coords. intro H. split; apply nonempty_iff; tauto. Qed.

Lemma intersects_iff_coords r o : intersects r o = true <->
  0 < rw r /\ 0 < rh r /\ 0 < rw o /\ 0 < rh o /\ rx r < rx o + rw o /\ ry r < ry o + rh o /\ rx o < rx r + rw r /\ ry o < ry r + rh r.
Proof.
  unfold intersects, right, bottom. rewrite guard_iff, orb_false_iff, !andb_true_iff, !Qltb_iff.
  fold (NonEmpty r) (NonEmpty o). rewrite !nonempty_iff. tauto.
Qed.

Lemma contains_intersects a q : contains a q = true -> intersects a q = true /\ intersects q a = true.
Proof. rewrite contains_iff_coords, !intersects_iff_coords. lra. Qed.

Theorem intersects_spec r o : intersects r o = true <-> exists px py, in_rect px py r /\ in_rect px py o.
Proof.
  rewrite intersects_iff_coords. split.
  - intros (A & B & C & D & E & F & G & H). exists (qmax (rx r) (rx o)), (qmax (ry r) (ry o)). rewrite !in_iff.
    pose proof (seg_overlap (rx r) (rw r) (rx o) (rw o) A C E G). pose proof (seg_overlap (ry r) (rh r) (ry o) (rh o) B D F H). tauto.
  - intros (px & py & H1 & H2). apply in_iff in H1, H2. unfold seg in *. lra.
Qed.

Theorem intersect_spec r o px py : pt_in px py (intersect r o) = pt_in px py r && pt_in px py o.
Proof.
  apply eq_true_iff_eq. rewrite andb_true_iff. change (in_rect px py (intersect r o) <-> in_rect px py r /\ in_rect px py o).
  rewrite !in_iff. unfold intersect, right, bottom.
  pose proof (seg_meet (rx r) (rw r) (rx o) (rw o) px) as X. pose proof (seg_meet (ry r) (rh r) (ry o) (rh o) py) as Y.
  destruct (empty r || empty o) eqn:G1.
  - unfold empty in G1. rewrite !orb_true_iff, !Qle_bool_iff in G1. unfold seg. cbn [zero_rect rx ry rw rh]. lra.
  - cbv zeta. destruct (Qle_bool _ 0 || Qle_bool _ 0) eqn:G2.
    + (* a common point would lie between the larger start and the smaller end on both axes *)
      rewrite orb_true_iff, !Qle_bool_iff in G2. unfold seg in *. cbn [zero_rect rx ry rw rh]. lra.
    + cbn [rx ry rw rh]. rewrite X, Y. tauto.
Qed.

Theorem empty_contains_nothing r i : empty r = true \/ empty i = true -> contains r i = false.
Proof. unfold contains. intros [->| ->]; rewrite ?orb_true_r; reflexivity. Qed.
Theorem empty_intersects_nothing r o : empty r = true \/ empty o = true -> intersects r o = false.
Proof. unfold intersects. intros [->| ->]; rewrite ?orb_true_r; reflexivity. Qed.
Theorem empty_has_no_point r px py : empty r = true -> pt_in px py r = false.
Proof. unfold pt_in. intros ->. reflexivity. Qed.

Theorem union_covers r o : (NonEmpty r -> contains (union r o) r = true) /\ (NonEmpty o -> contains (union r o) o = true).
Proof.
  unfold union, NonEmpty. destruct (empty r) eqn:Er, (empty o) eqn:Eo; split; intro H; try discriminate; auto using contains_refl;
    apply nonempty_iff in Er, Eo; apply contains_iff_coords; cbn [rx ry rw rh]; unfold right, bottom;
    pose proof (qminmax_cases (rx r) (rx o)); pose proof (qminmax_cases (ry r) (ry o));
    pose proof (qminmax_cases (rx r + rw r) (rx o + rw o)); pose proof (qminmax_cases (ry r + rh r) (ry o + rh o)); lra.
Qed.
Theorem union_least r o c : (NonEmpty r \/ NonEmpty o) ->
  (NonEmpty r -> contains c r = true) -> (NonEmpty o -> contains c o = true) -> contains c (union r o) = true.
Proof.
  unfold union, NonEmpty. intros Hne Hr Ho. destruct (empty r) eqn:Er, (empty o) eqn:Eo; [destruct Hne; congruence|auto|auto|].
  specialize (Hr eq_refl). specialize (Ho eq_refl). apply contains_iff_coords in Hr, Ho. apply contains_iff_coords.
  cbn [rx ry rw rh]. unfold right, bottom.
  pose proof (qminmax_cases (rx r) (rx o)). pose proof (qminmax_cases (ry r) (ry o)).
  pose proof (qminmax_cases (rx r + rw r) (rx o + rw o)). pose proof (qminmax_cases (ry r + rh r) (ry o + rh o)). lra.
Qed.
Lemma union_keeps acc v x : contains acc x = true -> contains (union acc v) x = true.
Proof.
  intro H. destruct (contains_nonempty _ _ H) as [Ha _]. destruct (union_covers acc v) as [U _]. eapply contains_trans; [apply U; exact Ha | exact H].
Qed.
Theorem union_empty r o : (empty r = true -> empty o = true -> union r o = zero_rect) /\
  (empty r = true -> empty o = false -> union r o = o) /\ (empty r = false -> empty o = true -> union r o = r).
Proof. unfold union. repeat split; intros -> ->; reflexivity. Qed.

Definition peq (p q : Q * Q) : Prop := fst p == fst q /\ snd p == snd q.
Definition meq (a b : matrix) : Prop :=
  sx a == sx b /\ kx a == kx b /\ tx a == tx b /\ ky a == ky b /\ sy a == sy b /\ ty a == ty b.
Theorem multiply_composes m o p : peq (m_transform (m_multiply m o) p) (m_transform o (m_transform m p)).
Proof. unfold peq, m_transform, m_multiply. cbn [fst snd sx kx tx ky sy ty]. split; ring. Qed.
(* the structured forms agree with multiplication by the elementary matrices, entry by entry, and a form that agrees with a
   product composes as the product does *)
Theorem translate_is_multiply m dx dy : meq (m_translate m dx dy) (m_multiply m (translation dx dy)).
Proof. unfold meq, m_translate, m_multiply, translation. cbn [sx kx tx ky sy ty]. repeat split; ring. Qed.
Theorem scale_is_multiply m fx fy : meq (m_scale m fx fy) (m_multiply m (scaling fx fy)).
Proof. unfold meq, m_scale, m_multiply, scaling. cbn [sx kx tx ky sy ty]. repeat split; ring. Qed.
Theorem rotate_is_multiply m s c : meq (m_rotate m s c) (m_multiply m (rotation s c)).
Proof. unfold meq, m_rotate, m_multiply, rotation. cbn [sx kx tx ky sy ty]. repeat split; ring. Qed.
Lemma product_form_composes a m o p : meq a (m_multiply m o) -> peq (m_transform a p) (m_transform o (m_transform m p)).
Proof.
  intros (A & B & C & D & E & F). unfold peq, m_transform. cbn [fst snd]. rewrite A, B, C, D, E, F.
  unfold m_multiply. cbn [sx kx tx ky sy ty]. split; ring.
Qed.
Theorem translate_composes m dx dy p : peq (m_transform (m_translate m dx dy) p) (m_transform (translation dx dy) (m_transform m p)).
Proof. apply product_form_composes, translate_is_multiply. Qed.
Theorem scale_composes m fx fy p : peq (m_transform (m_scale m fx fy) p) (m_transform (scaling fx fy) (m_transform m p)).
Proof. apply product_form_composes, scale_is_multiply. Qed.
Theorem rotate_composes m s c p : peq (m_transform (m_rotate m s c) p) (m_transform (rotation s c) (m_transform m p)).
Proof. apply product_form_composes, rotate_is_multiply. Qed.
Theorem identity_neutral p : peq (m_transform identity p) p.
Proof. unfold peq, m_transform, identity. cbn [fst snd sx kx tx ky sy ty]. split; ring. Qed.
Theorem multiply_identity m p : peq (m_transform (m_multiply m identity) p) (m_transform m p) /\
  peq (m_transform (m_multiply identity m) p) (m_transform m p).
Proof. unfold peq, m_transform, m_multiply, identity. cbn [fst snd sx kx tx ky sy ty]. repeat split; ring. Qed.

Theorem transform_maps_vertices p m : p_transform p m = map (map (m_transform m)) p /\
  length (p_transform p m) = length p /\
  forall i c, nth_error p i = Some c -> nth_error (p_transform p m) i = Some (map (m_transform m) c).
Proof.
  unfold p_transform. split; [reflexivity|]. split; [apply map_length|].
  intros i c H. apply map_nth_error. exact H.
Qed.

Section Folds.
  Variable f : Q * Q -> Q.
  Lemma fold_min_le l : forall a, let m := fold_left (fun a p => qmin a (f p)) l a in m <= a /\ forall p, In p l -> m <= f p.
  Proof.
    induction l as [|q l IH]; intro a; cbn [fold_left]; [split; [lra|intros ? []]|].
    destruct (IH (qmin a (f q))) as [A B]. pose proof (qminmax_cases a (f q)). split; [lra|]. intros p [<-|Hp]; [lra|apply B, Hp].
  Qed.
  Lemma fold_max_ge l : forall a, let m := fold_left (fun a p => qmax a (f p)) l a in a <= m /\ forall p, In p l -> f p <= m.
  Proof.
    induction l as [|q l IH]; intro a; cbn [fold_left]; [split; [lra|intros ? []]|].
    destruct (IH (qmax a (f q))) as [A B]. pose proof (qminmax_cases a (f q)). split; [lra|]. intros p [<-|Hp]; [lra|apply B, Hp].
  Qed.
End Folds.

Theorem bounds_encloses c v : In v c -> in_rect (fst v) (snd v) (c_bounds c).
Proof.
  destruct c as [|[x0 y0] r]; [intros []|]. intros H. unfold c_bounds. apply in_iff. cbn [rx ry rw rh].
  destruct (fold_min_le fst r x0) as [? Lx], (fold_min_le snd r y0) as [? Ly], (fold_max_ge fst r x0) as [? Ux], (fold_max_ge snd r y0) as [? Uy].
  destruct H as [<-|H]; cbn [fst snd]; [|specialize (Lx v H); specialize (Ly v H); specialize (Ux v H); specialize (Uy v H)]; repeat split; lra.
Qed.

Lemma Qeqb_iff x y : Qeqb x y = true <-> x == y.
Proof. unfold Qeqb. rewrite andb_true_iff, !Qle_bool_iff. split; [intros []; lra | intro; split; lra]. Qed.
Lemma Qeqb_false x y : Qeqb x y = false <-> ~ x == y.
Proof. rewrite <- Qeqb_iff. destruct (Qeqb x y); split; congruence. Qed.

Lemma between (cx nx t : Q) : 0 <= t -> t <= 1 -> qmin cx nx <= cx + t * (nx - cx) /\ cx + t * (nx - cx) <= qmax cx nx.
Proof. intros H0 H1. destruct (qminmax_cases cx nx); split; nra. Qed.

(* the point of the edge c -> n at height py is cx + q; it lies in the edge's x-span because it is the point at parameter
   t = (py - cy) / (ny - cy), which lies in [0, 1] *)
Lemma crossing_point (cx cy nx ny py : Q) : qmin cy ny <= py -> py < qmax cy ny ->
  let q := (py - cy) * (nx - cx) / (ny - cy) in
  qmin cx nx <= cx + q /\ cx + q <= qmax cx nx /\ q * (ny - cy) == (py - cy) * (nx - cx) /\ ~ ny == cy.
Proof.
  intros Hlo Hhi q.
  assert (Hy : (cy <= py /\ py < ny) \/ (ny <= py /\ py < cy))
    by (pose proof (qminmax_cases cy ny); lra).
  assert (Hd : ~ ny - cy == 0) by lra.
  set (t := (py - cy) / (ny - cy)).
  assert (Ht : t * (ny - cy) == py - cy) by (unfold t; field; exact Hd).
  assert (Hq : q == t * (nx - cx)) by (unfold q, t; field; exact Hd).
  assert (T01 : 0 <= t /\ t <= 1) by (destruct Hy as [[? ?]|[? ?]]; split; nra).
  destruct T01 as [T0 T1]. destruct (between cx nx t T0 T1) as [B1 B2].
  repeat split; try lra. rewrite Hq. nra.
Qed.

(* the bottom/top swap of the Go code picks the smaller and the larger ordinate *)
Lemma span_minmax (cy ny : Q) : (if Qltb ny cy then (ny, cy) else (cy, ny)) = (qmin cy ny, qmax cy ny).
Proof. unfold Qltb, qmin, qmax. destruct (Qle_bool cy ny); reflexivity. Qed.

Lemma edge_agree px py e : on_edge px py e = false -> edge_counts px py e = crosses px py e.
Proof.
  destruct e as [[cx cy] [nx ny]]. unfold on_edge, edge_counts, crosses. rewrite span_minmax. cbv beta iota. intro NE.
  apply not_true_iff_false in NE. apply eq_true_iff_eq.
  rewrite !andb_true_iff, orb_true_iff, negb_true_iff, Qeqb_false, Qeqb_iff, !Qle_bool_iff, !Qltb_iff.
  rewrite !andb_true_iff, Qeqb_iff, !Qle_bool_iff in NE.
  set (q := (py - cy) * (nx - cx) / (ny - cy)) in *. split.
  - intros ((((S1 & S2) & M) & D) & G). repeat split; try assumption.
    destruct (crossing_point cx cy nx ny py S1 S2) as (B1 & B2 & Bq & _). fold q in B1, B2, Bq.
    destruct (Qlt_le_dec px (cx + q)) as [?|Ge]; [assumption|exfalso]. destruct G as [G|G].
    + (* a vertical edge: the ray meets it at cx, which px is left of *)
      pose proof (qminmax_cases cx nx); lra.
    + (* otherwise px is the ray's meeting point itself, and p lies on the edge *)
      apply NE. assert (E : px == cx + q) by lra. repeat split; try lra. rewrite E, <- Bq. ring.
  - intros ((S1 & S2) & L). destruct (crossing_point cx cy nx ny py S1 S2) as (B1 & B2 & Bq & Bd). fold q in B1, B2, Bq.
    repeat split; try assumption; [lra | right; lra].
Qed.

Theorem contour_contains_crossing c px py :
  (forall e, In e (edges c) -> on_edge px py e = false) -> c_contains c px py = Nat.odd (crossings c px py).
Proof.
  intro H. unfold c_contains, c_count, crossings. do 2 f_equal. apply filter_ext_in. intros e He. apply edge_agree, H, He.
Qed.

Theorem polygon_contains_spec p px py :
  p_contains p px py = existsb (fun c => c_contains c px py) p /\
  p_contains_evenodd p px py = Nat.odd (length (filter (fun c => c_contains c px py) p)).
Proof. split; reflexivity. Qed.
