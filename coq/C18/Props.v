(* C18 — Coordinates range over all rationals, which contain every Go int and every finite float64. *)
From Coq Require Import QArith List Bool.
From Verif Require Import C18.Model C18.Proofs.
Import ListNotations.
Open Scope Q_scope.

(* a.Contains(b) <-> b non-empty and every point of b is In a *)
Theorem C18_contains_iff_inclusion : forall a b : rect,
  contains a b = true <-> (empty b = false /\ forall px py, pt_in px py b = true -> pt_in px py a = true).
Proof. exact contains_spec. Qed.
Print Assumptions C18_contains_iff_inclusion.

Theorem C18_intersects_iff_common_point : forall a b : rect,
  intersects a b = true <-> exists px py, pt_in px py a = true /\ pt_in px py b = true.
Proof. exact intersects_spec. Qed.
Print Assumptions C18_intersects_iff_common_point.

Theorem C18_intersect_is_common_points : forall (a b : rect) (px py : Q),
  pt_in px py (intersect a b) = pt_in px py a && pt_in px py b.
Proof. exact intersect_spec. Qed.
Print Assumptions C18_intersect_is_common_points.

Theorem C18_union_covers : forall a b : rect,
  (empty a = false -> contains (union a b) a = true) /\ (empty b = false -> contains (union a b) b = true).
Proof. exact union_covers. Qed.
Print Assumptions C18_union_covers.
Theorem C18_union_least : forall a b c : rect, (empty a = false \/ empty b = false) ->
  (empty a = false -> contains c a = true) -> (empty b = false -> contains c b = true) -> contains c (union a b) = true.
Proof. exact union_least. Qed.
Print Assumptions C18_union_least.
Theorem C18_union_with_empty : forall a b : rect,
  (empty a = true -> empty b = true -> union a b = zero_rect) /\
  (empty a = true -> empty b = false -> union a b = b) /\ (empty a = false -> empty b = true -> union a b = a).
Proof. exact union_empty. Qed.
Print Assumptions C18_union_with_empty.

Theorem C18_empty_contains_nothing : forall a b : rect, empty a = true \/ empty b = true -> contains a b = false.
Proof. exact empty_contains_nothing. Qed.
Print Assumptions C18_empty_contains_nothing.
Theorem C18_empty_intersects_nothing : forall a b : rect, empty a = true \/ empty b = true -> intersects a b = false.
Proof. exact empty_intersects_nothing. Qed.
Print Assumptions C18_empty_intersects_nothing.
Theorem C18_empty_has_no_point : forall (a : rect) (px py : Q), empty a = true -> pt_in px py a = false.
Proof. exact empty_has_no_point. Qed.
Print Assumptions C18_empty_has_no_point.

(* affine composition: transforming by m.Multiply(n) / Translate / Scale / Rotate = transforming by m, then by the second *)
Theorem C18_multiply_composes : forall (m n : matrix) (p : Q * Q),
  peq (m_transform (m_multiply m n) p) (m_transform n (m_transform m p)).
Proof. exact multiply_composes. Qed.
Print Assumptions C18_multiply_composes.
Theorem C18_translate_composes : forall (m : matrix) (dx dy : Q) (p : Q * Q),
  peq (m_transform (m_translate m dx dy) p) (m_transform (translation dx dy) (m_transform m p)).
Proof. exact translate_composes. Qed.
Print Assumptions C18_translate_composes.
Theorem C18_scale_composes : forall (m : matrix) (fx fy : Q) (p : Q * Q),
  peq (m_transform (m_scale m fx fy) p) (m_transform (scaling fx fy) (m_transform m p)).
Proof. exact scale_composes. Qed.
Print Assumptions C18_scale_composes.
(* s, c: whatever xmath.Sin / xmath.Cos return for the angle; the law is linear algebra and holds for any s, c *)
Theorem C18_rotate_composes : forall (m : matrix) (s c : Q) (p : Q * Q),
  peq (m_transform (m_rotate m s c) p) (m_transform (rotation s c) (m_transform m p)).
Proof. exact rotate_composes. Qed.
Print Assumptions C18_rotate_composes.
Theorem C18_identity_neutral : forall p : Q * Q, peq (m_transform identity p) p.
Proof. exact identity_neutral. Qed.
Print Assumptions C18_identity_neutral.
Theorem C18_multiply_identity : forall (m : matrix) (p : Q * Q),
  peq (m_transform (m_multiply m identity) p) (m_transform m p) /\ peq (m_transform (m_multiply identity m) p) (m_transform m p).
Proof. exact multiply_identity. Qed.
Print Assumptions C18_multiply_identity.

(* Contour.Contains = parity of the textbook crossing number, for points on no edge *)
Theorem C18_contour_contains_is_crossing_parity : forall (c : contour) (px py : Q),
  (forall e, List.In e (edges c) -> on_edge px py e = false) -> c_contains c px py = Nat.odd (crossings c px py).
Proof. exact contour_contains_crossing. Qed.
Print Assumptions C18_contour_contains_is_crossing_parity.
Theorem C18_polygon_contains : forall (p : polygon) (px py : Q),
  p_contains p px py = existsb (fun c => c_contains c px py) p /\
  p_contains_evenodd p px py = Nat.odd (length (filter (fun c => c_contains c px py) p)).
Proof. exact polygon_contains_spec. Qed.
Print Assumptions C18_polygon_contains.

Theorem C18_bounds_encloses_vertices : forall (c : contour) (v : Q * Q), List.In v c -> pt_in (fst v) (snd v) (c_bounds c) = true.
Proof. exact bounds_encloses. Qed.
Print Assumptions C18_bounds_encloses_vertices.

(* Transform maps every vertex by the matrix (the result is a new value; the harness checks the operand is untouched) *)
Theorem C18_transform_maps_vertices : forall (p : polygon) (m : matrix),
  p_transform p m = map (map (m_transform m)) p /\ length (p_transform p m) = length p /\
  forall i c, nth_error p i = Some c -> nth_error (p_transform p m) i = Some (map (m_transform m) c).
Proof. exact transform_maps_vertices. Qed.
Print Assumptions C18_transform_maps_vertices.

(* non-vacuity: the float witnesses that failed before the repairs *)
Example C18_ex_contains_fractional :
  contains (mkr 0 0 10 10) (mkr (1#5) (1#5) (1#2) (1#2)) = true /\ contains (mkr 0 0 10 10) (mkr 5 5 (11#2) (11#2)) = false.
Proof. split; reflexivity. Qed.
Example C18_ex_multiply_translations :
  m_transform (m_multiply (translation 1 2) (translation 10 20)) (0, 0) = (0 * 0 + 0 * 0 + (1 * 1 + 2 * 0 + 10), 0 * 0 + 0 * 0 + (1 * 0 + 2 * 1 + 20)).
Proof. reflexivity. Qed.
Example C18_ex_square_contains : c_contains [(0,0);(4,0);(4,4);(0,4)] 1 1 = true /\ c_contains [(0,0);(4,0);(4,4);(0,4)] 5 1 = false.
Proof. split; reflexivity. Qed.
