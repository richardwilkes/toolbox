(* C19 — property theorems only, each an instance of a lemma of Proofs.v or Proofs2.v and followed by Print Assumptions.
   The file system is symbolic: absolute paths, directories, files (inode numbers with content and mode), symbolic links.
   [good root f]: inode numbers are allocated, no inode is shared between a file below the destination and one outside it,
   and the destination directory exists. *)
From Coq Require Import List Bool Arith Lia.
From Verif Require Import C19.Model C19.Proofs C19.Proofs2.
Import ListNotations.

(* For every archive (any entries, names, link targets, in any order) and every file system (any symbolic links already present):
   no path outside the destination is created, removed or re-bound, and the content and mode of every file outside it are
   unchanged - whether extraction succeeds or stops with an error; and the invariant is kept for the next extraction *)
Theorem C19_nothing_outside_the_destination_is_touched : forall root dmode fmode pmode es f f' ok, good root f ->
  extract root dmode fmode pmode f es = (f', ok) ->
  ((forall q, inside root q = false -> look f' q = look f q) /\
   (forall q i, inside root q = false -> look f q = Some (NFile i) -> nth_error (inodes f') i = nth_error (inodes f) i)) /\ good root f'.
Proof. intros root dmode fmode pmode es f f' ok G E. pose proof (extract_frame root dmode fmode pmode es f G) as H. rewrite E in H. exact H. Qed.
Print Assumptions C19_nothing_outside_the_destination_is_touched.

(* one entry *)
Theorem C19_each_entry_is_confined : forall root dmode fmode pmode f e f' ok, good root f ->
  extract1 root dmode fmode pmode f e = (f', ok) -> frame root f f' /\ good root f'.
Proof. intros root dmode fmode pmode f e f' ok G E. pose proof (extract1_frame root dmode fmode pmode f e G) as H. rewrite E in H. exact H. Qed.
Print Assumptions C19_each_entry_is_confined.

(* a boolean check on a concrete file system that is sufficient for the hypothesis. It inspects every binding of the tree, also one
   that an earlier binding of the same path hides, so it can fail where [good] holds *)
Theorem C19_good_is_decidable : forall root f, wf_b f && sep_b root f && root_ok_b root f = true -> good root f.
Proof. exact good_b_sound. Qed.
Print Assumptions C19_good_is_decidable.

(* The positive half (Proofs2.v). [Inv f]: the tree holds no symbolic link, every bound path's parent is a directory, file inodes
   are allocated and not shared. [dirs f [] root]: every prefix of the destination is a directory (the proofs do not use it: MkdirAll
   creates what is missing of the destination). [plain root e]: a regular file or a
   directory whose name consists of proper components (no ".", "..", not empty) and is at most 63 deep with the destination (the
   proofs do not use the bound: a walk that runs out of fuel fails the extraction).
   The archive is reproduced: after a successful extraction, every regular-file entry that no later regular-file entry of the same
   name overwrites is a file holding that entry's content, every directory entry is a directory, everything that was bound before is
   still bound, and the invariant holds again *)
Theorem C19_plain_archive_is_reproduced : forall root dmode fmode pmode, simple root -> forall es f f',
  Inv f -> dirs f [] root -> Forall (plain root) es -> extract root dmode fmode pmode f es = (f', true) ->
  persist f f' /\ Inv f' /\
  (forall pre e post, es = pre ++ e :: post -> etyp e = TReg -> (forall e', In e' post -> ~ (etyp e' = TReg /\ ename e' = ename e)) ->
     exists i m, look f' (root ++ ename e) = Some (NFile i) /\ nth_error (inodes f') i = Some (payload e, m)) /\
  (forall e, In e es -> etyp e = TDir -> exists m, look f' (root ++ ename e) = Some (NDir m)).
Proof. intros root dmode fmode pmode RS es f f' I _ PL E. exact (proj2 (extract_reproduces root dmode fmode pmode RS es f f' I PL E)). Qed.
Print Assumptions C19_plain_archive_is_reproduced.
(* one regular-file entry: the file is there with the payload (mode fmode(recorded) when new), nothing else changes content *)
Theorem C19_regular_file_entry_is_written_whole : forall root dmode fmode pmode, simple root -> forall f e n f',
  Inv f -> dirs f [] root -> simple n -> n <> [] -> length root + length n <= 63 ->
  ename e = n -> etyp e = TReg -> extract1 root dmode fmode pmode f e = (f', true) ->
  Inv f' /\ persist f f' /\
  (exists i m', look f' (root ++ n) = Some (NFile i) /\ nth_error (inodes f') i = Some (payload e, m')) /\
  (forall q j, q <> root ++ n -> look f q = Some (NFile j) -> nth_error (inodes f') j = nth_error (inodes f) j).
Proof. intros root dmode fmode pmode RS f e n f' I _ SN NE _. exact (extract1_reg root dmode fmode pmode RS f e n f' I SN NE). Qed.
Print Assumptions C19_regular_file_entry_is_written_whole.

Module NonVacuous.
  (* names: 2 dst, 3 outside, 4 a, 7 lnk, 9 secret.  /dst, /outside/secret (inode 0, content 0) *)
  Definition f0 : fs := {| tree := [([2], NDir 493); ([3], NDir 493); ([3; 9], NFile 0)]; inodes := [(0, 420)] |}.
  Example f0_good : good [2] f0. Proof. apply good_b_sound. vm_compute. reflexivity. Qed.
  Definition e (n : path) (t : etype) (ab : bool) (l : path) (c : nat) := {| ename := n; etyp := t; labs := ab; lname := l; payload := c; emode := 420 |}.
  (* lnk -> /outside, then lnk/evil: refused; the link itself is reproduced *)
  Example escape_through_earlier_link_is_refused :
    extract [2] (fun m => m) (fun m => m) 493 f0 [e [7] TSym true [3] 0; e [7; 4] TReg false [] 55] =
    ({| tree := [([2], NDir 493); ([3], NDir 493); ([3; 9], NFile 0); ([2; 7], NSym true [3])]; inodes := [(0, 420)] |}, false).
  Proof. vm_compute. reflexivity. Qed.
  (* lnk -> ../outside/secret, then a regular file named lnk: refused, the secret keeps its content *)
  Example writing_through_a_final_link_is_refused :
    snd (extract [2] (fun m => m) (fun m => m) 493 f0 [e [7] TSym false [1; 3; 9] 0; e [7] TReg false [] 66]) = false.
  Proof. vm_compute. reflexivity. Qed.
  (* an ordinary archive is reproduced *)
  Example ordinary_archive :
    extract [2] (fun m => m) (fun m => m) 493 f0 [e [4; 7] TReg false [] 11; e [4] TDir false [] 0; e [4; 9] TLink false [4; 7] 0] =
    ({| tree := [([2], NDir 493); ([3], NDir 493); ([3; 9], NFile 0); ([2; 4], NDir 493); ([2; 4; 7], NFile 1); ([2; 4; 9], NFile 1)]; inodes := [(0, 420); (11, 420)] |}, true).
  Proof. vm_compute. reflexivity. Qed.
  (* the hypotheses of the positive theorem are met: an empty destination /dst, an archive with nested names, an overwritten file *)
  Definition g0 : fs := {| tree := [([2], NDir 493)]; inodes := [] |}.
  Lemma g0_look q : look g0 q = match q with [] => Some (NDir 493) | [2] => Some (NDir 493) | _ => None end.
  Proof. destruct q as [|[|[|[|c]]] [|y q]]; reflexivity. Qed.
  Example g0_Inv : Inv g0 /\ dirs g0 [] [2] /\ simple [2].
  Proof.
    split; [|split].
    - split; [|split; [|split]].
      + intros q a t. rewrite g0_look. destruct q as [|[|[|[|c]]] [|y q]]; discriminate.
      + intros q x Hq. rewrite g0_look. destruct q as [|[|[|[|c]]] [|y q]]; try discriminate; try congruence. intros _. exists 493. reflexivity.
      + intros q i. rewrite g0_look. destruct q as [|[|[|[|c]]] [|y q]]; discriminate.
      + intros q q' i. rewrite g0_look. destruct q as [|[|[|[|c]]] [|y q]]; discriminate.
    - intros k Hk. cbn in Hk. assert (k = 1) by lia. subst. exists 493. reflexivity.
    - repeat constructor.
  Qed.
  Definition arch := [e [4; 7] TReg false [] 11; e [5] TDir false [] 0; e [4; 7] TReg false [] 12; e [5; 9] TReg false [] 13].
  Example arch_plain_and_extracted : Forall (plain [2]) arch /\
    extract [2] (fun m => m) (fun m => m) 493 g0 arch =
    ({| tree := [([2], NDir 493); ([2; 4], NDir 493); ([2; 4; 7], NFile 0); ([2; 5], NDir 420); ([2; 5; 9], NFile 1)]; inodes := [(12, 420); (13, 420)] |}, true).
  Proof.
    split; [|vm_compute; reflexivity].
    repeat (apply Forall_cons || apply Forall_nil);
      (unfold plain; cbn; split; [first [left; reflexivity|right; reflexivity]|split; [repeat constructor; lia|split; [discriminate|lia]]]).
  Qed.
End NonVacuous.
