(* C19 — lemmas: every node the extraction creates and every inode it rewrites lies below the destination, so the rest of the file
   system is untouched - whatever symbolic links the archive or the destination contain. *)
From Coq Require Import List Bool Arith Lia.
From Verif Require Import common.ListFacts C19.Model.
Import ListNotations.

Lemma peq_eq : forall a b, peq a b = true <-> a = b.
Proof. exact (list_eqb_spec Nat.eqb Nat.eqb_eq). Qed.
Lemma peq_refl q : peq q q = true. Proof. apply peq_eq. reflexivity. Qed.
Lemma is_prefix_spec : forall a b, is_prefix a b = true <-> exists t, b = a ++ t.
Proof.
  induction a as [|x a IH]; intros b; cbn.
  - split; [intros _; exists b; reflexivity|reflexivity].
  - destruct b as [|y b]; [split; [discriminate|intros [t H]; discriminate]|]. split.
    + intro H. apply andb_prop in H. destruct H as [H1 H2]. apply Nat.eqb_eq in H1. apply IH in H2.
      destruct H2 as [t ->]. exists t. subst. reflexivity.
    + intros [t H]. injection H as -> ->. rewrite Nat.eqb_refl. apply IH. exists t. reflexivity.
Qed.
Lemma is_prefix_app a b c : is_prefix a b = true -> is_prefix a (b ++ c) = true.
Proof.
  intro H. apply is_prefix_spec in H. destruct H as [t ->]. apply is_prefix_spec. exists (t ++ c).
  apply app_assoc_reverse.
Qed.

Lemma prefix_comparable : forall a b l, is_prefix a l = true -> is_prefix b l = true ->
  is_prefix a b = true \/ is_prefix b a = true.
Proof.
  induction a as [|x a IH]; intros [|y b] [|z l]; cbn; auto; try discriminate.
  intros Ha Hb. apply andb_prop in Ha, Hb. destruct Ha as [Ha Ha'], Hb as [Hb Hb']. apply Nat.eqb_eq in Ha, Hb.
  subst y z. rewrite Nat.eqb_refl. exact (IH b l Ha' Hb').
Qed.

Lemma look_inodes_irrel f f' : tree f' = tree f -> forall q, look f' q = look f q.
Proof. intros H q. unfold look. rewrite H. reflexivity. Qed.
Lemma look_ext f f' q n q' : tree f' = tree f ++ [(q, n)] ->
  look f' q' = match look f q' with Some x => Some x | None => if peq q q' then Some n else None end.
Proof.
  intro H. destruct q' as [|c q']; [reflexivity|]. unfold look. rewrite H. clear H.
  induction (tree f) as [|[p m] t IH]; cbn [app find fst snd].
  - destruct (peq q (c :: q')); reflexivity.
  - destruct (peq p (c :: q')); [reflexivity|exact IH].
Qed.
Lemma look_fresh f f' q n : tree f' = tree f ++ [(q, n)] -> look f q = None ->
  forall q', look f' q' = if peq q q' then Some n else look f q'.
Proof.
  intros H L q'. rewrite (look_ext f f' q n q' H).
  destruct (peq q q') eqn:P; [apply peq_eq in P; subst q'; rewrite L; reflexivity|destruct (look f q'); reflexivity].
Qed.
Lemma fresh_keeps f f' q n : tree f' = tree f ++ [(q, n)] -> forall q' x, look f q' = Some x ->
  look f' q' = Some x.
Proof. intros H q' x Lq. rewrite (look_ext f f' q n q' H), Lq. reflexivity. Qed.

Lemma set_nth_length {A} (l : list A) i x : i < length l -> length (set_nth l i x) = length l.
Proof. intro H. unfold set_nth. rewrite app_length, firstn_length. cbn [length]. rewrite skipn_length. lia. Qed.
Lemma nth_error_set_nth {A} : forall (l : list A) i y j, i < length l ->
  nth_error (set_nth l i y) j = if j =? i then Some y else nth_error l j.
Proof.
  unfold set_nth. induction l as [|x l IH]; intros i y j H; [inversion H|].
  destruct i as [|i], j as [|j]; cbn; try reflexivity.
  apply IH. cbn [length] in H. lia.
Qed.

Section C.
Variable root : path.
Definition inside (q : path) : bool := is_prefix root q.
Definition frame (f f' : fs) : Prop :=
  (forall q, inside q = false -> look f' q = look f q) /\
  (forall q i, inside q = false -> look f q = Some (NFile i) -> nth_error (inodes f') i = nth_error (inodes f) i).
Definition wf (f : fs) : Prop := forall q i, look f q = Some (NFile i) -> i < length (inodes f).
Definition sep (f : fs) : Prop := forall q q' i, inside q = false -> inside q' = true -> look f q = Some (NFile i) -> look f q' <> Some (NFile i).
Definition root_ok (f : fs) : Prop := forall k, 0 < k <= length root -> exists m, look f (firstn k root) = Some (NDir m).
Definition good (f : fs) : Prop := wf f /\ sep f /\ root_ok f.

Lemma frame_refl f : frame f f. Proof. split; auto. Qed.
Lemma frame_trans a b c : frame a b -> frame b c -> frame a c.
Proof.
  intros [A1 A2] [B1 B2]. split.
  - intros q H. rewrite B1, A1 by exact H. reflexivity.
  - intros q i H L. rewrite (B2 q i H), (A2 q i H L); [reflexivity|]. rewrite A1 by exact H. exact L.
Qed.

(* what every operation of the extraction is; a preorder, so a sequence of steps is a step *)
Definition step (f f' : fs) : Prop := good f -> frame f f' /\ good f'.
Lemma step_refl f : step f f.
Proof. intro G. split; [apply frame_refl|exact G]. Qed.
Lemma step_trans a b c : step a b -> step b c -> step a c.
Proof.
  intros H1 H2 G. destruct (H1 G) as [F1 G1]. destruct (H2 G1) as [F2 G2]. split; [exact (frame_trans a b c F1 F2)|exact G2].
Qed.

(* [wf_ext] starts from the lookup equation of [look_fresh], which [good] here and [Inv] in Proofs2.v both have at hand *)
Lemma wf_ext f f' q n ex : wf f -> (forall q', look f' q' = if peq q q' then Some n else look f q') ->
  inodes f' = inodes f ++ ex ->
  (forall i, n = NFile i -> i < length (inodes f')) -> wf f'.
Proof.
  intros W LK HI Hn q' i. rewrite LK. destruct (peq q q'); [intros [= ->]; apply Hn; reflexivity|].
  intro H. apply W in H. rewrite HI, app_length. lia.
Qed.
Lemma fresh_inode f x : wf f ->
  length (inodes f) < length (inodes f ++ [x]) /\ forall s, look f s <> Some (NFile (length (inodes f))).
Proof. intro W. split; [rewrite app_length; cbn; lia|]. intros s H. apply W in H. lia. Qed.

Lemma ext_good f f' q n ex : inside q = true -> look f q = None -> tree f' = tree f ++ [(q, n)] ->
  inodes f' = inodes f ++ ex ->
  (forall i, n = NFile i -> i < length (inodes f') /\ forall s, inside s = false -> look f s <> Some (NFile i)) -> step f f'.
Proof.
  intros Hq L HT HI Hn (W & S & R). pose proof (look_fresh f f' q n HT L) as LK.
  assert (OUT : forall s, inside s = false -> look f' s = look f s).
  { intros s Hs. rewrite LK. destruct (peq q s) eqn:P; [apply peq_eq in P; congruence|reflexivity]. }
  split; [split|split; [|split]].
  - exact OUT.
  - intros s i _ Ls. rewrite HI. apply nth_error_app1, (W s i Ls).
  - apply (wf_ext f f' q n ex W LK HI). intros i Hi. apply Hn, Hi.
  - intros a b i Ha Hb. rewrite (OUT a Ha), LK. intro La.
    destruct (peq q b); [intros [= ->]; exact (proj2 (Hn i eq_refl) a Ha La)|exact (S a b i Ha Hb La)].
  - intros k Hk. destruct (R k Hk) as [m Lm]. exists m. exact (fresh_keeps f f' q n HT _ _ Lm).
Qed.
Lemma put_inside f q n : inside q = true -> look f q = None ->
  (forall i, n = NFile i -> i < length (inodes f) /\ forall s, inside s = false -> look f s <> Some (NFile i)) -> step f (put f q n).
Proof. intros Hq L Hn. apply (ext_good f (put f q n) q n [] Hq L eq_refl); [symmetry; apply app_nil_r|exact Hn]. Qed.
Lemma good_same_tree f f' : tree f' = tree f -> length (inodes f') = length (inodes f) -> good f -> good f'.
Proof.
  intros HT HL (W & S & R). pose proof (look_inodes_irrel f f' HT) as LK. split; [|split].
  - intros q i. rewrite LK, HL. apply W.
  - intros a b i Ha Hb. rewrite !LK. apply S; assumption.
  - intros k Hk. rewrite LK. apply R, Hk.
Qed.

(* p and [root] are prefixes of the same path, so one is a prefix of the other, and a prefix of [root] exists *)
Lemma first_missing_inside f p r : root_ok f -> inside (p ++ r) = true -> look f p = None -> inside p = true.
Proof.
  intros R H L.
  destruct (prefix_comparable root p (p ++ r) H) as [I|I]; [apply is_prefix_spec; exists r; reflexivity|exact I|].
  exfalso. apply is_prefix_spec in I. destruct I as [t Ht]. destruct (R (length p)) as [m Lm].
  - rewrite Ht, app_length. destruct p; [discriminate L|cbn; lia].
  - rewrite Ht, firstn_app_exact in Lm. congruence.
Qed.

Lemma mkdirs_frame mode : forall rest f cur, inside (cur ++ rest) = true -> step f (fst (mkdirs f cur rest mode)).
Proof.
  induction rest as [|c r IH]; intros f cur H; cbn [mkdirs]; [apply step_refl|].
  destruct (look f (cur ++ [c])) eqn:L; [apply step_refl|].
  assert (H' : inside ((cur ++ [c]) ++ r) = true) by (rewrite <- app_assoc; exact H).
  apply (step_trans _ (put f (cur ++ [c]) (NDir mode))); [|apply IH, H'].
  intro G. apply put_inside; [exact (first_missing_inside f _ r (proj2 (proj2 G)) H' L)|exact L|intros i [=]|exact G].
Qed.

Variables (dmode fmode : nat -> nat) (pmode : nat).
Notation finish := (finish dmode fmode).
Notation link_source := (link_source root).
Notation extract1 := (extract1 root dmode fmode pmode).
Notation extract := (extract root dmode fmode pmode).

Lemma link_source_inside f o n : link_source f o = Some n -> exists s, inside s = true /\ look f s = Some n.
Proof.
  unfold Model.link_source. destruct (negb (below_root root o)); [discriminate|].
  destruct (walk FUEL f [] (parent o) true) as [cur [|x r]| |]; try discriminate.
  destruct (is_prefix root cur) eqn:P; [|discriminate]. intro H. exists (cur ++ [lastc o]). split; [apply is_prefix_app, P|].
  destruct (look f (cur ++ [lastc o])) as [[m|j|a t]|]; congruence.
Qed.

Lemma finish_frame f d c e src : inside d = true ->
  (forall n, src = Some n -> exists s, inside s = true /\ look f s = Some n) ->
  step f (fst (finish f d c e src)).
Proof.
  intros Hd Hsrc. assert (Hq : inside (d ++ [c]) = true) by apply is_prefix_app, Hd. unfold Model.finish.
  destruct (etyp e).
  - (* regular file *)
    destruct (look f (d ++ [c])) as [[m|i|a t]|] eqn:L; cbn [fst]; try apply step_refl.
    + (* the content of inode i is replaced: no path outside names i *)
      intros (W & S & R). pose proof (W _ _ L) as Hi.
      split; [split|apply (good_same_tree f); [reflexivity|apply set_nth_length, Hi|repeat split; assumption]].
      * intros q H. reflexivity.
      * intros q j H Lq. cbn [inodes]. rewrite nth_error_set_nth by exact Hi. destruct (j =? i) eqn:Ej; [|reflexivity].
        apply Nat.eqb_eq in Ej. subst j. destruct (S q (d ++ [c]) i H Hq Lq L).
    + (* a new file under a new inode number *)
      intro G. eapply (ext_good f _ (d ++ [c]) _ _ Hq L); [reflexivity|reflexivity| |exact G].
      intros i [= <-]. destruct (fresh_inode f (payload e, fmode (emode e)) (proj1 G)) as [A B].
      split; [exact A|intros s _; apply B].
  - (* directory *)
    destruct (look f (d ++ [c])) eqn:L; cbn [fst]; [apply step_refl|apply put_inside; [exact Hq|exact L|intros i [=]]].
  - (* symbolic link *)
    destruct (look f (d ++ [c])) eqn:L; cbn [fst]; [apply step_refl|apply put_inside; [exact Hq|exact L|intros i [=]]].
  - (* hard link: the new name shares the inode of a file inside *)
    destruct src as [n|]; [|apply step_refl]. destruct (look f (d ++ [c])) eqn:L; cbn [fst]; [apply step_refl|].
    intro G. apply put_inside; [exact Hq|exact L| |exact G]. intros i ->. destruct (Hsrc _ eq_refl) as (s & Hs & Ls), G as (W & S & _).
    split; [exact (W s i Ls)|]. intros a Ha La. exact (S a s i Ha Hs La Ls).
  - (* an ignored entry type *)
    apply step_refl.
Qed.

(* the tail of [extract1] that all entry types share, except TIgn and a TDir whose parents are missing *)
Lemma parents_then_finish f cur rest c e (src : fs -> option node) : inside (cur ++ rest) = true ->
  (forall f1 n, src f1 = Some n -> exists s, inside s = true /\ look f1 s = Some n) ->
  step f (fst (let '(f1, ok) := mkdirs f cur rest pmode in
             if negb ok then (f1, false) else
             match look f1 (cur ++ rest) with Some (NDir _) => finish f1 (cur ++ rest) c e (src f1) | _ => (f1, false) end)).
Proof.
  intros P Hsrc. pose proof (mkdirs_frame pmode rest f cur P) as F1. destruct (mkdirs f cur rest pmode) as [f1 ok].
  cbn [fst] in F1.
  destruct (negb ok); [exact F1|]. destruct (look f1 (cur ++ rest)) as [[m|i|a t]|]; try exact F1.
  apply (step_trans _ f1 _ F1), finish_frame; [exact P|apply Hsrc].
Qed.

Theorem extract1_frame f e : step f (fst (extract1 f e)).
Proof.
  unfold Model.extract1. set (p := clean (root ++ ename e) []).
  destruct (negb (below_root root p)); [apply step_refl|].
  destruct (walk FUEL f [] (parent p) true) as [cur rest| |]; try apply step_refl.
  destruct (negb (is_prefix root (cur ++ rest))) eqn:P; [apply step_refl|]. apply negb_false_iff in P.
  (* Confine does not write through a final link *)
  destruct (match etyp e, rest with
            | TReg, [] => match look f (cur ++ [lastc p]) with Some (NSym _ _) => true | _ => false end
            | _, _ => false end); [apply step_refl|].
  pose proof (parents_then_finish f cur rest (lastc p) e
                (fun f1 => match etyp e with TLink => link_source f1 (clean (root ++ lname e) []) | _ => None end) P) as General.
  destruct (etyp e).
  - (* TReg *) apply General. discriminate.
  - (* TDir: with parents missing, MkdirAll of the entry's own path *)
    destruct rest as [|x r]; [apply General; discriminate|].
    pose proof (mkdirs_frame (dmode (emode e)) ((x :: r) ++ [lastc p]) f cur) as F.
    destruct (mkdirs f cur ((x :: r) ++ [lastc p]) (dmode (emode e))) as [f1 ok]. apply F. rewrite app_assoc.
    apply is_prefix_app, P.
  - (* TSym *) apply General. discriminate.
  - (* TLink *) apply General. intros f1 n. apply link_source_inside.
  - (* TIgn *) apply step_refl.
Qed.

Theorem extract_frame : forall es f, step f (fst (extract f es)).
Proof.
  induction es as [|e es IH]; intros f; cbn [Model.extract]; [apply step_refl|].
  pose proof (extract1_frame f e) as F1. destruct (extract1 f e) as [f1 [|]]; [|exact F1].
  exact (step_trans _ _ _ F1 (IH f1)).
Qed.
End C.

(* sufficient, not necessary: the check also inspects bindings that an earlier one for the same path hides *)
Section D.
Variable root : path.
Definition wf_b (f : fs) : bool := forallb (fun e => match snd e with NFile i => i <? length (inodes f) | _ => true end) (tree f).
Definition sep_b (f : fs) : bool :=
  forallb (fun e1 => forallb (fun e2 => match snd e1, snd e2 with
                                        | NFile i, NFile j => negb (i =? j) || Bool.eqb (inside root (fst e1)) (inside root (fst e2))
                                        | _, _ => true end) (tree f)) (tree f).
Definition root_ok_b (f : fs) : bool := forallb (fun k => match look f (firstn k root) with Some (NDir _) => true | _ => false end) (seq 1 (length root)).
Lemma look_file_in f q i : look f q = Some (NFile i) -> In (q, NFile i) (tree f).
Proof.
  destruct q as [|c q]; [discriminate|]. unfold look. destruct (find _ (tree f)) as [[q' n']|] eqn:E; [|discriminate].
  intros [= ->]. apply find_some in E. destruct E as [Hin P]. apply peq_eq in P. cbn [fst] in P. subst q'. exact Hin.
Qed.
Theorem good_b_sound f : wf_b f && sep_b f && root_ok_b f = true -> good root f.
Proof.
  intro H. apply andb_prop in H. destruct H as [H R]. apply andb_prop in H. destruct H as [W S]. split; [|split].
  - intros q i L. apply look_file_in in L. unfold wf_b in W. rewrite forallb_forall in W.
    exact (proj1 (Nat.ltb_lt _ _) (W _ L)).
  - intros q q' i Hq Hq' L L'. apply look_file_in in L, L'. unfold sep_b in S. rewrite forallb_forall in S.
    specialize (S _ L).
    rewrite forallb_forall in S. specialize (S _ L'). cbn [fst snd] in S. rewrite Nat.eqb_refl, Hq, Hq' in S. discriminate.
  - intros k Hk. unfold root_ok_b in R. rewrite forallb_forall in R. specialize (R k ltac:(apply in_seq; lia)).
    destruct (look f (firstn k root)) as [[m|i|a t]|]; try discriminate. exists m. reflexivity.
Qed.
End D.
