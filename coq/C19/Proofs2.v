(* C19 — the positive half: on a link-free file system, an archive of regular files and directories with plain names is reproduced
   under the destination. *)
From Coq Require Import List Bool Arith Lia.
From Verif Require Import C19.Model C19.Proofs.
Import ListNotations.

Definition simple (n : path) : Prop := Forall (fun c => 2 <= c) n.
Lemma simple_app a b : simple a -> simple b -> simple (a ++ b).
Proof. intros. apply Forall_app. split; assumption. Qed.
Lemma simple_app_inv a b : simple (a ++ b) -> simple a /\ simple b.
Proof. intro H. apply Forall_app in H. exact H. Qed.
Lemma clean_simple : forall l acc, simple l -> clean l acc = acc ++ l.
Proof.
  induction l as [|c l IH]; intros acc H; cbn [clean]; [rewrite app_nil_r; reflexivity|].
  inversion H as [|? ? Hc Hl]; subst. destruct c as [|[|c]]; try lia. rewrite IH by exact Hl. rewrite <- app_assoc.
  reflexivity.
Qed.

Definition nolinks (f : fs) : Prop := forall q a t, look f q <> Some (NSym a t).
Definition parents (f : fs) : Prop := forall q x, q <> [] -> look f q = Some x -> exists m, look f (parent q) = Some (NDir m).
Definition filesok (f : fs) : Prop := forall q i, look f q = Some (NFile i) -> i < length (inodes f).
Definition inj (f : fs) : Prop := forall q q' i, look f q = Some (NFile i) -> look f q' = Some (NFile i) -> q = q'.
Definition Inv (f : fs) : Prop := nolinks f /\ parents f /\ filesok f /\ inj f.
Lemma filesok_wf f : filesok f <-> wf f. Proof. reflexivity. Qed.

Definition dirs (f : fs) (cur a : path) : Prop := forall k, 0 < k <= length a -> exists m, look f (cur ++ firstn k a) = Some (NDir m).

Lemma walk_simple f : nolinks f -> forall comps fuel cur fl mc, simple comps -> look f cur = Some (NDir mc) ->
  match walk fuel f cur comps fl with
  | Reached c r => c ++ r = cur ++ comps /\ (r <> [] -> look f (c ++ [hd 0 r]) = None) /\
                   ((exists m, look f c = Some (NDir m)) \/ (r = [] /\ exists i, look f c = Some (NFile i)))
  | NotDir | Loop => True
  end.
Proof.
  intros NL.
  induction comps as [|c rest IH]; intros fuel cur fl mc HS LC; (destruct fuel as [|fu]; [exact I|]); cbn [walk].
  - split; [reflexivity|]. split; [congruence|]. left. exists mc. exact LC.
  - inversion HS as [|? ? Hc Hr]; subst. destruct c as [|[|c]]; try lia.
    destruct (look f (cur ++ [S (S c)])) as [[m|i|ab tg]|] eqn:L.
    + specialize (IH fu (cur ++ [S (S c)]) fl m Hr L). rewrite <- app_assoc in IH. exact IH.
    + destruct rest as [|x r]; [|exact I]. split; [apply app_nil_r|]. split; [congruence|]. right.
      split; [reflexivity|]. exists i. exact L.
    + destruct (NL _ _ _ L).
    + split; [reflexivity|]. split; [intros _; exact L|]. left. exists mc. exact LC.
Qed.

Definition persist (f f' : fs) : Prop := forall q x, look f q = Some x -> look f' q = Some x.
Lemma dirs_nil f cur : dirs f cur []. Proof. intros k H. cbn in H. lia. Qed.
Lemma dirs_cons f cur c a m : look f (cur ++ [c]) = Some (NDir m) -> dirs f (cur ++ [c]) a -> dirs f cur (c :: a).
Proof.
  intros L D k Hk. destruct k as [|k]; [lia|]. cbn [firstn]. destruct k as [|k].
  - cbn [firstn]. exists m. exact L.
  - destruct (D (S k)) as [m' Lm]; [cbn [length] in Hk; lia|]. exists m'. rewrite <- app_assoc in Lm. exact Lm.
Qed.
Lemma persist_refl f : persist f f. Proof. intros q x H. exact H. Qed.
Lemma persist_trans a b c : persist a b -> persist b c -> persist a c.
Proof. intros A B q x H. apply B, A, H. Qed.
Lemma parent_snoc cur c : parent (cur ++ [c]) = cur.
Proof. unfold parent. apply removelast_last. Qed.
Lemma snoc_nonempty (l : path) x : l ++ [x] <> [].
Proof. intro H. apply (app_cons_not_nil l [] x). symmetry. exact H. Qed.
Lemma snoc_neq (a : path) y : a <> a ++ [y].
Proof. intro H. apply (f_equal (@length nat)) in H. rewrite app_length in H. cbn in H. lia. Qed.
Lemma last_app_ne (a b : path) d : b <> [] -> last (a ++ b) d = last b d.
Proof.
  intro H. induction a as [|x a IH]; [reflexivity|]. cbn [app].
  destruct (a ++ b) eqn:E; [destruct a; [cbn in E; congruence|discriminate]|].
  change (last (x :: n :: l) d) with (last (n :: l) d). exact IH.
Qed.
Lemma look_nil f : look f [] = Some (NDir 493). Proof. reflexivity. Qed.

Lemma ext_Inv f f' q n ex md : Inv f -> look f q = None -> look f (parent q) = Some (NDir md) ->
  tree f' = tree f ++ [(q, n)] -> inodes f' = inodes f ++ ex ->
  (forall a t, n <> NSym a t) -> (forall i, n = NFile i -> i < length (inodes f') /\ forall s, look f s <> Some (NFile i)) ->
  Inv f' /\ persist f f' /\ look f' q = Some n.
Proof.
  intros (NL & PA & FO & IJ) L LP HT HI Hs Hf. pose proof (look_fresh f f' q n HT L) as LK.
  pose proof (fresh_keeps f f' q n HT) as PS.
  split; [|split; [exact PS|rewrite LK, peq_refl; reflexivity]]. split; [|split; [|split]].
  - intros q' a t. rewrite LK. destruct (peq q q'); [intros [= ->]; exact (Hs a t eq_refl)|apply NL].
  - intros q' x Hq'. rewrite LK. destruct (peq q q') eqn:P.
    + apply peq_eq in P. subst q'. intros _. exists md. apply PS, LP.
    + intro H. destruct (PA q' x Hq' H) as [m Lm]. exists m. apply PS, Lm.
  - apply filesok_wf, (wf_ext f f' q n ex (proj1 (filesok_wf f) FO) LK HI). intros i Hi. apply Hf, Hi.
  - intros a b i. rewrite !LK. destruct (peq q a) eqn:Pa, (peq q b) eqn:Pb.
    + apply peq_eq in Pa, Pb. congruence.
    + intros [= ->] Lb. destruct (proj2 (Hf i eq_refl) b Lb).
    + intros La [= ->]. destruct (proj2 (Hf i eq_refl) a La).
    + apply IJ.
Qed.
Lemma put_dir_Inv f q m mp : Inv f -> look f q = None -> look f (parent q) = Some (NDir mp) ->
  Inv (put f q (NDir m)) /\ persist f (put f q (NDir m)) /\ look (put f q (NDir m)) q = Some (NDir m).
Proof.
  intros I L LP.
  apply (ext_Inv f _ q _ [] mp I L LP); [reflexivity|symmetry; apply app_nil_r|discriminate|discriminate].
Qed.
Lemma Inv_same_tree f f' : tree f' = tree f -> length (inodes f') = length (inodes f) -> Inv f -> Inv f' /\ persist f f'.
Proof.
  intros HT HL (NL & PA & FO & IJ). pose proof (look_inodes_irrel f f' HT) as LK. split; [split; [|split; [|split]]|].
  - intros q a t. rewrite LK. apply NL.
  - intros q x. rewrite !LK. apply PA.
  - intros q i. rewrite LK, HL. apply FO.
  - intros a b i. rewrite !LK. apply IJ.
  - intros q x. rewrite LK. auto.
Qed.

Lemma mkdirs_simple m : forall rest f cur mc, Inv f -> look f cur = Some (NDir mc) ->
  (rest <> [] -> look f (cur ++ [hd 0 rest]) = None) ->
  exists f1, mkdirs f cur rest m = (f1, true) /\ Inv f1 /\ persist f f1 /\ inodes f1 = inodes f /\ exists m', look f1 (cur ++ rest) = Some (NDir m').
Proof.
  induction rest as [|c r IH]; intros f cur mc I LC N.
  - exists f. cbn [mkdirs]. rewrite app_nil_r. split; [reflexivity|]. split; [exact I|]. split; [apply persist_refl|].
    split; [reflexivity|]. exists mc. exact LC.
  - cbn [mkdirs]. specialize (N ltac:(discriminate)). cbn [hd] in N. rewrite N.
    destruct (put_dir_Inv f (cur ++ [c]) m mc I N) as (I2 & P2 & L2); [rewrite parent_snoc; exact LC|].
    destruct (IH (put f (cur ++ [c]) (NDir m)) (cur ++ [c]) m I2 L2) as (f1 & M & I1 & P1 & E1 & m' & L1).
    { intro Hr. destruct r as [|y r']; [congruence|]. cbn [hd].
      rewrite (look_fresh f (put f (cur ++ [c]) (NDir m)) _ _ eq_refl N).
      destruct (peq (cur ++ [c]) ((cur ++ [c]) ++ [y])) eqn:P; [apply peq_eq in P; destruct (snoc_neq _ y P)|].
      destruct (look f ((cur ++ [c]) ++ [y])) eqn:E; [|reflexivity].
      destruct (proj1 (proj2 I) _ n (snoc_nonempty _ _) E) as [mm Lm]. rewrite parent_snoc in Lm. congruence. }
    exists f1. split; [exact M|]. split; [exact I1|]. split; [eapply persist_trans; eassumption|]. split; [exact E1|].
    exists m'. rewrite <- app_assoc in L1. exact L1.
Qed.

Section X.
Variables (root : path) (dmode fmode : nat -> nat) (pmode : nat).

Lemma finish_reg f d c e md f' : Inv f -> look f d = Some (NDir md) -> etyp e = TReg ->
  finish dmode fmode f d c e None = (f', true) ->
  Inv f' /\ persist f f' /\
  (exists i m', look f' (d ++ [c]) = Some (NFile i) /\ nth_error (inodes f') i = Some (payload e, m')) /\
  (forall q j, q <> d ++ [c] -> look f q = Some (NFile j) -> nth_error (inodes f') j = nth_error (inodes f) j).
Proof.
  intros I LD T E. unfold finish in E. rewrite T in E. set (q := d ++ [c]) in *. pose proof I as (NL & _ & FO & IJ).
  destruct (look f q) as [[m|i|a t]|] eqn:L; [discriminate| | destruct (NL _ _ _ L) | ]; injection E as <-.
  - (* the content of inode i is replaced; no other path names i *)
    pose proof (FO q i L) as Hi.
    set (g := {| tree := tree f; inodes := set_nth (inodes f) i (payload e, snd (nth i (inodes f) (0, 0))) |}).
    destruct (Inv_same_tree f g eq_refl (set_nth_length _ _ _ Hi) I) as [I' P']. subst g.
    split; [exact I'|]. split; [exact P'|]. split.
    + exists i, (snd (nth i (inodes f) (0, 0))). split; [exact L|]. cbn [inodes].
      rewrite nth_error_set_nth, Nat.eqb_refl by exact Hi. reflexivity.
    + intros p j Hp Lp. cbn [inodes]. rewrite nth_error_set_nth by exact Hi. destruct (j =? i) eqn:Ej; [|reflexivity].
      apply Nat.eqb_eq in Ej. subst j. destruct (Hp (IJ p q i Lp L)).
  - (* a new file under a new inode number *)
    set (g := {| tree := tree f ++ [(q, NFile (length (inodes f)))]; inodes := inodes f ++ [(payload e, fmode (emode e))] |}).
    assert (LP : look f (parent q) = Some (NDir md)) by (unfold q; rewrite parent_snoc; exact LD).
    destruct (ext_Inv f g q _ _ md I L LP eq_refl eq_refl) as (I' & P' & L'); [discriminate|intros i [= <-]; exact (fresh_inode f _ (proj1 (filesok_wf f) FO))|].
    subst g.
    split; [exact I'|]. split; [exact P'|]. split.
    + exists (length (inodes f)), (fmode (emode e)). split; [exact L'|]. cbn [inodes].
      rewrite nth_error_app2, Nat.sub_diag by apply le_n. reflexivity.
    + intros p j _ Lp. cbn [inodes]. apply nth_error_app1, (FO p j Lp).
Qed.

(* the destination need not exist yet: MkdirAll creates what is missing of it *)
Hypothesis root_simple : simple root.

Lemma name_facts n : simple n -> n <> [] ->
  clean (root ++ n) [] = root ++ n /\ parent (root ++ n) = root ++ removelast n /\ lastc (root ++ n) = last n 0.
Proof.
  intros SN NE. split; [rewrite clean_simple by (apply simple_app; assumption); reflexivity|]. split.
  - unfold parent. apply removelast_app. exact NE.
  - unfold lastc. apply last_app_ne. exact NE.
Qed.

(* A successful extraction has passed every check of [extract1]: each check is destructed in the goal and its failing branch
   contradicts the success; only what the result depends on is proved. [E] is introduced only after the goal has been rewritten:
   rewriting in [E] makes Qed re-check through [walk FUEL] and not return. *)
Theorem extract1_entry f e n f' : Inv f -> simple n -> n <> [] -> ename e = n ->
  etyp e = TReg \/ etyp e = TDir -> extract1 root dmode fmode pmode f e = (f', true) ->
  Inv f' /\ persist f f' /\
  (forall q j, ~ (etyp e = TReg /\ q = root ++ n) -> look f q = Some (NFile j) -> nth_error (inodes f') j = nth_error (inodes f) j) /\
  (etyp e = TReg -> exists i m, look f' (root ++ n) = Some (NFile i) /\ nth_error (inodes f') i = Some (payload e, m)) /\
  (etyp e = TDir -> exists m, look f' (root ++ n) = Some (NDir m)).
Proof.
  intros I SN NE EN TT. destruct (name_facts n SN NE) as (C & P & LC).
  unfold extract1. rewrite EN, C, P, LC. destruct (negb (below_root root (root ++ n))); [discriminate|].
  pose proof (app_removelast_last 0 NE) as RL.
  assert (SD : simple (root ++ removelast n))
    by (rewrite RL in SN; exact (simple_app _ _ root_simple (proj1 (simple_app_inv _ _ SN)))).
  pose proof (walk_simple f (proj1 I) _ FUEL [] true _ SD (look_nil f)) as W.
  destruct (walk FUEL f [] (root ++ removelast n) true) as [c r| |]; [|discriminate..].
  destruct W as (CR & N & K). cbn [app] in CR.
  assert (Q : (c ++ r) ++ [last n 0] = root ++ n) by (rewrite CR, <- app_assoc, <- RL; reflexivity).
  destruct (negb (is_prefix root (c ++ r))); [discriminate|]. destruct TT as [T|T]; rewrite T.
  - (* a regular file *)
    destruct (match r with [] => _ | _ :: _ => false end); [discriminate|]. intro E.
    destruct K as [(mc & Lc)|(-> & i & Li)]; [|cbn [mkdirs negb] in E; rewrite app_nil_r, Li in E; discriminate].
    destruct (mkdirs_simple pmode r f c mc I Lc N) as (f1 & M & I1 & P1 & E1 & m' & L1).
    rewrite M in E. cbn [negb] in E. rewrite L1 in E.
    destruct (finish_reg f1 (c ++ r) (last n 0) e m' f' I1 L1 T E) as (I' & P' & X & FR). rewrite Q in *.
    split; [exact I'|]. split; [exact (persist_trans _ _ _ P1 P')|]. split; [|split; [intros _; exact X|discriminate]].
    intros q j Hq Lq. rewrite (FR q j (fun Eq => Hq (conj eq_refl Eq)) (P1 q _ Lq)), E1. reflexivity.
  - (* a directory *)
    intro E. cut (Inv f' /\ persist f f' /\ inodes f' = inodes f /\ exists m, look f' (root ++ n) = Some (NDir m)).
    { intros (I' & P' & EI & X). split; [exact I'|]. split; [exact P'|]. split; [intros q j _ _; rewrite EI; reflexivity|].
      split; [discriminate|intros _; exact X]. }
    destruct r as [|x r'].
    + (* the parent is there: the final step *)
      cbn [mkdirs negb] in E. rewrite app_nil_r in *.
      destruct K as [(mc & Lc)|(_ & i & Li)]; [|rewrite Li in E; discriminate].
      rewrite Lc in E. unfold finish in E. rewrite T, Q in E. destruct (look f (root ++ n)) as [x|] eqn:L.
      * injection E as <- LD'. split; [exact I|]. split; [apply persist_refl|]. split; [reflexivity|].
        unfold leads_to_dir in LD'. rewrite L in LD'.
        destruct x as [m|i|a t]; [exists m; exact L|discriminate|destruct (proj1 I _ _ _ L)].
      * injection E as <-.
        destruct (put_dir_Inv f (root ++ n) (dmode (emode e)) mc I L) as (I2 & P2 & L2); [rewrite <- Q, parent_snoc; exact Lc|].
        split; [exact I2|]. split; [exact P2|]. split; [reflexivity|]. eexists. exact L2.
    + (* parents are missing: MkdirAll creates them and the directory itself *)
      destruct K as [(mc & Lc)|(Er & _)]; [|discriminate].
      destruct (mkdirs_simple (dmode (emode e)) ((x :: r') ++ [last n 0]) f c mc I Lc) as (f1 & M & I1 & P1 & E1 & m' & L1);
        [intros _; apply N; discriminate|].
      rewrite M in E. injection E as <-. split; [exact I1|]. split; [exact P1|]. split; [exact E1|]. exists m'.
      rewrite app_assoc, Q in L1. exact L1.
Qed.

Theorem extract1_reg f e n f' : Inv f -> simple n -> n <> [] -> ename e = n -> etyp e = TReg -> extract1 root dmode fmode pmode f e = (f', true) ->
  Inv f' /\ persist f f' /\
  (exists i m', look f' (root ++ n) = Some (NFile i) /\ nth_error (inodes f') i = Some (payload e, m')) /\
  (forall q j, q <> root ++ n -> look f q = Some (NFile j) -> nth_error (inodes f') j = nth_error (inodes f) j).
Proof.
  intros I SN NE EN T E. destruct (extract1_entry f e n f' I SN NE EN (or_introl T) E) as (I' & P' & FR & X & _).
  split; [exact I'|]. split; [exact P'|]. split; [exact (X T)|]. intros q j Hq. apply FR. intros [_ Eq]. exact (Hq Eq).
Qed.

Definition plain (e : entry) : Prop := (etyp e = TReg \/ etyp e = TDir) /\ simple (ename e) /\ ename e <> [] /\ length root + length (ename e) <= 63.

(* the first part is the list form of the third part of [extract1_entry]; the head entry's file survives the rest by it *)
Theorem extract_reproduces : forall es f f', Inv f -> Forall plain es -> extract root dmode fmode pmode f es = (f', true) ->
  (forall q j, (forall e, In e es -> ~ (etyp e = TReg /\ q = root ++ ename e)) -> look f q = Some (NFile j) ->
     nth_error (inodes f') j = nth_error (inodes f) j) /\
  persist f f' /\ Inv f' /\
  (forall pre e post, es = pre ++ e :: post -> etyp e = TReg -> (forall e', In e' post -> ~ (etyp e' = TReg /\ ename e' = ename e)) ->
     exists i m, look f' (root ++ ename e) = Some (NFile i) /\ nth_error (inodes f') i = Some (payload e, m)) /\
  (forall e, In e es -> etyp e = TDir -> exists m, look f' (root ++ ename e) = Some (NDir m)).
Proof.
  induction es as [|e es IH]; intros f f' I PL E; cbn [extract] in E.
  - injection E as <-. split; [reflexivity|]. split; [apply persist_refl|]. split; [exact I|].
    split; [intros [|? ?] ? ? H; discriminate|intros ? []].
  - inversion PL as [|? ? Pe Pes]; subst. destruct (extract1 root dmode fmode pmode f e) as [f1 ok] eqn:E1.
    destruct ok; [|discriminate].
    destruct Pe as (TT & SN & NE & _). destruct (extract1_entry f e _ f1 I SN NE eq_refl TT E1) as (I1 & P1 & FR1 & REG1 & DIR1).
    destruct (IH f1 f' I1 Pes E) as (FR & P2 & I2 & REG & DIR).
    split; [|split; [exact (persist_trans _ _ _ P1 P2)|split; [exact I2|split]]].
    + intros q j NO L. rewrite (FR q j (fun e' IN => NO e' (or_intror IN)) (P1 q _ L)). exact (FR1 q j (NO e (or_introl eq_refl)) L).
    + intros pre e0 post EQ T NO.
      destruct pre as [|p pre]; cbn [app] in EQ; [|injection EQ as <- EQ; exact (REG pre e0 post EQ T NO)].
      injection EQ as <- <-. destruct (REG1 T) as (i & m & Li & Xi). exists i, m. split; [exact (P2 _ _ Li)|].
      rewrite (FR (root ++ ename e) i); [exact Xi| |exact Li].
      intros e' IN [T' Q]. apply app_inv_head in Q. exact (NO e' IN (conj T' (eq_sym Q))).
    + intros e0 [<-|IN] T; [|exact (DIR e0 IN T)]. destruct (DIR1 T) as [m L]. exists m. apply P2, L.
Qed.
End X.
