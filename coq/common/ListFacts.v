From Coq Require Import List Bool.
Import ListNotations.

(* a fold seen one element at a time: P relates the elements consumed so far to the state reached *)
Lemma fold_left_ind {A B} (f : A -> B -> A) (P : list B -> A -> Prop) a :
  P [] a -> (forall l x a', P l a' -> P (l ++ [x]) (f a' x)) -> forall l, P l (fold_left f l a).
Proof. intros H0 HS l. induction l as [|x l IH] using rev_ind; [exact H0|]. rewrite fold_left_app. apply HS, IH. Qed.
Lemma fold_left_inv {A B} (P : A -> Prop) (f : A -> B -> A) : (forall a b, P a -> P (f a b)) -> forall l a, P a -> P (fold_left f l a).
Proof. intros H l a Ha. apply (fold_left_ind f (fun _ => P)); auto. Qed.
Lemma fold_left_inv_Forall {A B} (P : A -> Prop) (Q : B -> Prop) (f : A -> B -> A) : (forall a b, P a -> Q b -> P (f a b)) ->
  forall l a, P a -> Forall Q l -> P (fold_left f l a).
Proof. intros H l. induction l as [|b l IH]; intros a Ha HQ; [exact Ha|]. inversion HQ; subst. apply IH; auto. Qed.
Lemma fold_left_rel {A B} (R : A -> A -> Prop) (g : A -> B -> A) : (forall a, R a a) -> (forall a b c, R a b -> R b c -> R a c) ->
  (forall a b, R a (g a b)) -> forall l a, R a (fold_left g l a).
Proof. intros Rr Rt H l a. apply (fold_left_inv (R a)); [|apply Rr]. intros a' b Ha. exact (Rt _ _ _ Ha (H a' b)). Qed.

Lemma Forall_snoc {A} (P : A -> Prop) l x : Forall P l -> P x -> Forall P (l ++ [x]).
Proof. intros H Hx. apply Forall_app. auto. Qed.
Lemma NoDup_snoc {A} (l : list A) x : NoDup l -> ~ In x l -> NoDup (l ++ [x]).
Proof.
  intros H N. apply NoDup_rev in H. rewrite <- (rev_involutive (l ++ [x])), rev_app_distr. apply NoDup_rev. cbn. constructor; [|exact H].
  intro I. apply N, in_rev, I.
Qed.

Lemma firstn_app_exact {A} (a b : list A) : firstn (length a) (a ++ b) = a.
Proof. induction a; cbn; [destruct b; reflexivity|f_equal; assumption]. Qed.
Lemma skipn_app_exact {A} (a : list A) x b : skipn (S (length a)) (a ++ x :: b) = b.
Proof. induction a; cbn; [reflexivity|assumption]. Qed.
Lemma skipn_step {A} : forall n (l : list A) c r, skipn n l = c :: r -> skipn (S n) l = r.
Proof. induction n as [|n IH]; intros [|x l] c r E; try discriminate; [injection E as _ <-; reflexivity|exact (IH l c r E)]. Qed.

(* Equality of lists decided element by element. The models write this fixpoint out at their own element type (C04.beq,
   C10.seq_eq, C17.seq_eq, C19.peq); each of those is convertible to an instance of list_eqb, so list_eqb_spec proves their specifications. *)
Section ListEqb.
Context {A : Type} (eqb : A -> A -> bool).
Fixpoint list_eqb (a b : list A) : bool :=
  match a, b with [], [] => true | x :: a', y :: b' => eqb x y && list_eqb a' b' | _, _ => false end.
Lemma list_eqb_spec : (forall x y, eqb x y = true <-> x = y) -> forall a b, list_eqb a b = true <-> a = b.
Proof.
  intro E. induction a as [|x a IH]; intros [|y b]; cbn; try (split; congruence).
  rewrite andb_true_iff, E, IH. split; [intros [-> ->]; reflexivity|intro H; injection H; auto].
Qed.
End ListEqb.
