(* Facts about the Word64 primitives: wrap as reduction mod 2^64, the carry/borrow/product primitives, 64-bit words as bit strings *)
From Coq Require Import ZArith List Bool Lia.
From Verif Require Import common.Word64.
Open Scope Z_scope.

Definition w64 (x : Z) : Prop := 0 <= x < W.

Lemma wrap_range x : w64 (wrap x).
Proof. unfold w64, wrap. apply Z.mod_pos_bound. lia. Qed.
Lemma wrap_small x : w64 x -> wrap x = x.
Proof. unfold w64, wrap. intro. apply Z.mod_small. lia. Qed.
Lemma wrap_shift x k : w64 (x + k * W) -> wrap x = x + k * W.
Proof. intro H. symmetry. apply (Z.mod_unique_pos x W (- k)); [exact H | ring]. Qed.

Lemma to_s64_mod x : 0 <= x < W -> to_s64 x mod W = x.
Proof.
  intro H. unfold to_s64. destruct (SIGN <=? x); [symmetry; apply Z.mod_unique with (q := -1); lia|apply Z.mod_small; lia].
Qed.

Lemma wrap_add_l x y : wrap (wrap x + y) = wrap (x + y).
Proof. apply Zplus_mod_idemp_l. Qed.
Lemma wrap_add_r x y : wrap (x + wrap y) = wrap (x + y).
Proof. apply Zplus_mod_idemp_r. Qed.

Lemma div_mod_parts x b : 0 < b -> 0 <= x -> x = x / b * b + x mod b /\ 0 <= x mod b < b /\ 0 <= x / b.
Proof.
  intros Hb Hx. pose proof (Z.mod_pos_bound x b Hb). pose proof (Z.div_pos x b Hx Hb).
  pose proof (Z.div_mod x b) as E. rewrite (Z.mul_comm b) in E. lia.
Qed.

Lemma add64_spec x y c : w64 x -> w64 y -> 0 <= c <= 1 ->
  let '(s, co) := add64 x y c in w64 s /\ 0 <= co <= 1 /\ s + co * W = x + y + c.
Proof. unfold w64, add64, wrap. intros. cbn. Z.div_mod_to_equations. lia. Qed.
Lemma sub64_spec x y b : w64 x -> w64 y -> 0 <= b <= 1 ->
  let '(d, bo) := sub64 x y b in w64 d /\ 0 <= bo <= 1 /\ d - bo * W = x - y - b.
Proof. unfold w64, sub64, wrap. intros. cbn. destruct (Z.ltb_spec (x - y - b) 0); Z.div_mod_to_equations; lia. Qed.
Lemma mul64_spec x y : w64 x -> w64 y -> let '(h, l) := mul64 x y in w64 h /\ w64 l /\ h * W + l = x * y.
Proof.
  unfold w64, mul64, wrap. intros Hx Hy. cbn.
  assert (0 <= x * y) by nia. assert (x * y < W * W) by nia.
  pose proof (Z.div_mod (x * y) W ltac:(lia)). pose proof (Z.mod_pos_bound (x * y) W ltac:(lia)).
  assert (0 <= x * y / W) by (apply Z.div_pos; lia).
  assert (x * y / W < W) by (apply Z.div_lt_upper_bound; lia).
  lia.
Qed.

Lemma not64_range x : w64 x -> w64 (not64 x).
Proof. unfold w64, not64. lia. Qed.

Lemma w64_bits x : w64 x <-> 0 <= x /\ forall i, 64 <= i -> Z.testbit x i = false.
Proof.
  unfold w64. split.
  - intros [H0 H1]. split; [exact H0|]. intros i Hi. destruct (Z.eq_dec x 0) as [->|Hx]; [apply Z.bits_0|].
    apply Z.bits_above_log2; [lia|]. assert (Z.log2 x < 64) by (apply Z.log2_lt_pow2; lia). lia.
  - intros [H0 Hb]. split; [exact H0|]. destruct (Z_lt_le_dec x W) as [?|Hge]; [assumption|exfalso].
    assert (Hp : 0 < x) by lia. pose proof (Z.bit_log2 x Hp) as B.
    assert (64 <= Z.log2 x) by (apply Z.log2_le_pow2; lia). rewrite Hb in B by lia. discriminate.
Qed.

Lemma w64_op (op : Z -> Z -> Z) (f : bool -> bool -> bool) :
  (forall a b i, 0 <= i -> Z.testbit (op a b) i = f (Z.testbit a i) (Z.testbit b i)) ->
  (forall a b, 0 <= a -> 0 <= b -> 0 <= op a b) -> f false false = false ->
  forall a b, w64 a -> w64 b -> w64 (op a b).
Proof.
  intros Hop Hnn Hff a b Ha Hb. apply w64_bits. apply w64_bits in Ha, Hb. destruct Ha as [Ha0 Ha], Hb as [Hb0 Hb].
  split; [apply Hnn; assumption|]. intros i Hi. rewrite Hop by lia. rewrite Ha, Hb by lia. exact Hff.
Qed.

Lemma W_pow : W = 2 ^ 64. Proof. reflexivity. Qed.
Lemma pow2_w64 k : 0 <= k < 64 -> w64 (2 ^ k).
Proof. intro Hk. unfold w64. split; [apply Z.pow_nonneg; lia|]. rewrite W_pow. apply Z.pow_lt_mono_r; lia. Qed.
Lemma pow_split n : 0 <= n <= 64 -> 2 ^ n * 2 ^ (64 - n) = W /\ 0 < 2 ^ n /\ 0 < 2 ^ (64 - n).
Proof. intro H. repeat split; try (apply Z.pow_pos_nonneg; lia). rewrite <- Z.pow_add_r by lia. replace (n + (64 - n)) with 64 by lia. reflexivity. Qed.

Lemma not64_bits x i : w64 x -> 0 <= i -> Z.testbit (not64 x) i = (i <? 64) && negb (Z.testbit x i).
Proof.
  intros Hx Hi. unfold not64. change MAX64 with (Z.ones 64).
  rewrite Z.sub_nocarry_ldiff.
  - rewrite Z.ldiff_spec, Z.testbit_ones_nonneg by lia. reflexivity.
  - apply Z.bits_inj'. intros k Hk. rewrite Z.ldiff_spec, Z.bits_0, Z.testbit_ones_nonneg by lia.
    destruct (k <? 64) eqn:E; [apply andb_false_r|]. apply Z.ltb_ge in E. apply w64_bits in Hx. destruct Hx as [_ Hx]. rewrite Hx by lia. reflexivity.
Qed.
Lemma andnot64_ldiff x y : w64 x -> w64 y -> andnot64 x y = Z.ldiff x y.
Proof.
  intros Hx Hy. unfold andnot64. apply Z.bits_inj'. intros i Hi. rewrite Z.land_spec, Z.ldiff_spec, not64_bits by assumption.
  destruct (i <? 64) eqn:E; [reflexivity|]. apply Z.ltb_ge in E. apply w64_bits in Hx. destruct Hx as [_ Hx]. rewrite Hx by lia. reflexivity.
Qed.
Lemma andnot64_0 x : w64 x -> andnot64 x 0 = x.
Proof. intro H. rewrite andnot64_ldiff by (assumption || unfold w64; lia). apply Z.ldiff_0_r. Qed.

Lemma shl_val x k : k < 64 -> shl x k = (x * 2 ^ k) mod W.
Proof. intro Hk. unfold shl, wrap. rewrite (proj2 (Z.ltb_lt k 64)) by lia. reflexivity. Qed.
Lemma shr_val x k : k < 64 -> shr x k = x / 2 ^ k.
Proof. intro Hk. unfold shr. rewrite (proj2 (Z.ltb_lt k 64)) by lia. reflexivity. Qed.
Lemma shl_big x k : 64 <= k -> shl x k = 0.
Proof. intro Hk. unfold shl. rewrite (proj2 (Z.ltb_ge k 64)) by lia. reflexivity. Qed.
Lemma shr_big x k : 64 <= k -> shr x k = 0.
Proof. intro Hk. unfold shr. rewrite (proj2 (Z.ltb_ge k 64)) by lia. reflexivity. Qed.
Lemma shl1 k : 0 <= k < 64 -> shl 1 k = 2 ^ k.
Proof. intro Hk. unfold shl. rewrite (proj2 (Z.ltb_lt k 64)), Z.mul_1_l by lia. apply wrap_small, pow2_w64, Hk. Qed.
Lemma land1_b2z a : Z.land a 1 = Z.b2z (Z.odd a).
Proof. change 1 with (Z.ones 1). rewrite Z.land_ones by lia. change (2 ^ 1) with 2. rewrite Zmod_odd. destruct (Z.odd a); reflexivity. Qed.
Lemma shr_testbit x i : 0 <= i < 64 -> Z.land (shr x i) 1 = Z.b2z (Z.testbit x i).
Proof. intro Hi. unfold shr. rewrite (proj2 (Z.ltb_lt i 64)) by lia. rewrite land1_b2z, Z.testbit_odd, Z.shiftr_div_pow2 by lia. reflexivity. Qed.
Lemma land_M32 x : Z.land x M32 = x mod B32.
Proof. change M32 with (Z.ones 32). rewrite Z.land_ones by lia. reflexivity. Qed.

Lemma lor_add_disjoint a c n : 0 <= n -> a mod 2 ^ n = 0 -> 0 <= c < 2 ^ n -> Z.lor a c = a + c.
Proof.
  intros Hn Hm Hc.
  assert (L : Z.land a c = 0).
  { apply Z.bits_inj'. intros k Hk. rewrite Z.land_spec, Z.bits_0.
    destruct (Z.lt_ge_cases k n) as [Hlt|Hge].
    - assert (Z.testbit a k = false).
      { pose proof (Z.div_mod a (2^n) ltac:(apply Z.pow_nonzero; lia)) as H. rewrite Hm, Z.add_0_r in H. rewrite H, Z.mul_comm.
        apply Z.mul_pow2_bits_low. lia. }
      rewrite H. reflexivity.
    - assert (Z.testbit c k = false).
      { destruct (Z.eq_dec c 0) as [->|Hne]; [apply Z.bits_0|]. apply Z.bits_above_log2; [lia|].
        apply Z.log2_lt_pow2; [lia|]. apply Z.lt_le_trans with (2^n); [lia|]. apply Z.pow_le_mono_r; lia. }
      rewrite H. apply andb_false_r. }
  rewrite <- Z.lxor_lor by assumption. symmetry. apply Z.add_nocarry_lxor. assumption.
Qed.
Lemma lor1_even x : 0 <= x -> x mod 2 = 0 -> Z.lor x 1 = x + 1.
Proof. intros H0 H. apply (lor_add_disjoint x 1 1); [lia|exact H|cbn; lia]. Qed.
Lemma lor_right un1 rhat : 0 <= un1 < B32 -> 0 <= rhat < B32 -> Z.lor (shl rhat 32) un1 = rhat * B32 + un1.
Proof.
  intros Hu1 H. rewrite shl_val by lia. change (2 ^ 32) with B32. rewrite Z.mod_small by nia.
  apply (lor_add_disjoint _ _ 32).
  - lia.
  - change (2 ^ 32) with B32. apply Z.mod_mul. lia.
  - change (2 ^ 32) with B32. lia.
Qed.
Lemma shl32_add r l : 0 <= r < B32 -> 0 <= l < B32 -> wrap (shl r 32 + l) = r * B32 + l.
Proof. intros Hr Hl. rewrite shl_val, Z.mod_small by lia. apply wrap_small. unfold w64. lia. Qed.
Lemma wrap_chain a b c : wrap (shl a 32 + wrap (b - wrap c)) = (a * B32 + b - c) mod W.
Proof.
  unfold shl, wrap. change (32 <? 64) with true. cbv iota. change (2 ^ 32) with B32.
  rewrite Zminus_mod_idemp_r, Zplus_mod_idemp_r, Zplus_mod_idemp_l. f_equal. ring.
Qed.

Lemma lz_norm n0 : 0 < n0 < W -> 0 <= lz64 n0 <= 63 /\ SIGN <= n0 * 2 ^ lz64 n0 < W.
Proof.
  intro H. unfold lz64, len64. destruct (Z.eqb_spec n0 0); [lia|].
  pose proof (Z.log2_spec n0 ltac:(lia)) as [L1 L2]. pose proof (Z.log2_nonneg n0).
  assert (Z.log2 n0 < 64). { apply Z.log2_lt_pow2; [lia|]. change (2 ^ 64) with W. lia. }
  split; [lia|]. replace (64 - (Z.log2 n0 + 1)) with (63 - Z.log2 n0) by lia.
  assert (E : 2 ^ Z.log2 n0 * 2 ^ (63 - Z.log2 n0) = SIGN) by (rewrite <- Z.pow_add_r by lia; replace (Z.log2 n0 + (63 - Z.log2 n0)) with 63 by lia; reflexivity).
  assert (E2 : 2 ^ Z.succ (Z.log2 n0) * 2 ^ (63 - Z.log2 n0) = W) by (rewrite <- Z.pow_add_r by lia; replace (Z.succ (Z.log2 n0) + (63 - Z.log2 n0)) with 64 by lia; reflexivity).
  assert (0 < 2 ^ (63 - Z.log2 n0)) by (apply Z.pow_pos_nonneg; lia). nia.
Qed.
Lemma lz64_top v : SIGN <= v < W -> lz64 v = 0.
Proof.
  intro H. unfold lz64, len64. destruct (Z.eqb_spec v 0); [lia|]. assert (Z.log2 v = 63); [|lia].
  apply Z.log2_unique; [lia|]. change (2 ^ 63) with SIGN. change (2 ^ Z.succ 63) with W. lia.
Qed.
