(* C03 — property theorems only (f64.Int; raw values are int64, M = 10^D with 1 <= D <= 16, so 10 <= M <= 10^16).
   fits x says x is representable (an int64). Z.quot / Z.rem truncate toward zero. The f128 methods are the same formulas over the
   Int128 model of C01 (Model.v); their theorems (second half of this file) rest on the C01 theorems for Int128 Add/Sub/Mul/Div. *)
From Coq Require Import ZArith List Bool Lia.
From Verif Require Import common.Word64 C01.Model C03.Model C03.ProofsZ C03.Proofs C03.Proofs128 C03.Proofs128b C03.ProofsFrac.
Open Scope Z_scope.

Theorem C03_add_sub_exact : forall a b, (fits (a + b) -> add a b = a + b) /\ (fits (a - b) -> sub a b = a - b).
Proof. intros a b. split; [exact (add_exact a b) | exact (sub_exact a b)]. Qed.
Print Assumptions C03_add_sub_exact.

Theorem C03_mul_truncates_toward_zero : forall M, 10 <= M <= 10000000000000000 -> forall a b, fits (a * b) -> mul M a b = Z.quot (a * b) M.
Proof. intros M HM. apply mul_exact. lia. Qed.
Print Assumptions C03_mul_truncates_toward_zero.

Theorem C03_div_truncates_toward_zero : forall M, 10 <= M <= 10000000000000000 -> forall a b,
  b <> 0 -> fits (a * M) -> fits (Z.quot (a * M) b) -> div M a b = Z.quot (a * M) b.
Proof. intros M _ a b _. exact (div_exact M a b). Qed.
Print Assumptions C03_div_truncates_toward_zero.

Theorem C03_mod_is_remainder : forall M, 10 <= M <= 10000000000000000 -> forall a b,
  b <> 0 -> fits a -> fits b -> fits (a * M) -> fits (Z.quot (a * M) b) -> fits (b * M * Z.quot a b) -> mod_ M a b = Z.rem a b.
Proof. intros M HM a b Hb Ha _. apply mod_exact; [lia|exact Hb|exact Ha]. Qed.
Print Assumptions C03_mod_is_remainder.

Theorem C03_trunc_toward_zero : forall M, 10 <= M <= 10000000000000000 -> forall a, fits a -> trunc M a = M * Z.quot a M.
Proof. intros M HM. apply trunc_exact. lia. Qed.
Print Assumptions C03_trunc_toward_zero.

Theorem C03_ceil_toward_plus_infinity : forall M, 10 <= M <= 10000000000000000 -> forall a, fits a -> fits (M * Z.quot a M + M) ->
  ceil M a = (if (0 <? a) && negb (a =? M * Z.quot a M) then M * Z.quot a M + M else M * Z.quot a M) /\
  (let c := ceil M a in a <= c < a + M /\ Z.rem c M = 0).
Proof. intros M HM a H F. rewrite (ceil_exact M ltac:(lia) a H F). split; [reflexivity|apply ceilZ_spec; lia]. Qed.
Print Assumptions C03_ceil_toward_plus_infinity.

(* Round: a whole number within half a unit, and on an exact half the one farther from zero *)
Theorem C03_round_half_away_from_zero : forall M, 10 <= M <= 10000000000000000 -> forall a,
  fits a -> fits (M * Z.quot a M + M) -> fits (M * Z.quot a M - M) -> Z.even M = true ->
  let r := round M a in Z.rem r M = 0 /\ 2 * Z.abs (r - a) <= M /\ (2 * Z.abs (r - a) = M -> Z.abs a < Z.abs r).
Proof. intros M HM a H F1 F2 Hev. cbv zeta. rewrite (round_exact M ltac:(lia) a H F1 F2). apply roundZ_spec; [lia|exact Hev]. Qed.
Print Assumptions C03_round_half_away_from_zero.

Theorem C03_abs_min_max_inc_dec : forall M a b,
  (fits a -> a <> - SIGN -> abs a = Z.abs a) /\ min_ a b = Z.min a b /\ max_ a b = Z.max a b /\
  (fits (a + M) -> inc M a = a + M) /\ (fits (a - M) -> dec M a = a - M).
Proof.
  intros M a b. split; [exact (abs_exact a)|]. destruct (minmax_exact a b) as [A B]. destruct (incdec_exact M a) as [C D].
  split; [exact A|]. split; [exact B|]. split; [exact C | exact D].
Qed.
Print Assumptions C03_abs_min_max_inc_dec.

(* integers convert exactly: From v = v * 10^D, As (From v) = v and CheckedAs (From v) = v for every integer kind (w bits) *)
Theorem C03_from_int_exact : forall M v, fits v -> fits (v * M) -> from_int M v = v * M.
Proof. exact from_exact. Qed.
Print Assumptions C03_from_int_exact.
Theorem C03_as_from_roundtrip : forall M, 10 <= M <= 10000000000000000 -> forall w signed v, 0 < w <= 64 -> fits v -> fits (v * M) ->
  kfits w signed v ->
  as_int M w signed (from_int M v) = v /\ checked_as_int M w signed (from_int M v) = Some v.
Proof. intros M HM w signed v Hw. apply as_from_roundtrip; lia. Qed.
Print Assumptions C03_as_from_roundtrip.

(* regression examples: Round(-2.5) and From[D4,int8](5) *)
Example C03_ex_round_negative_half : round 10 (-25) = -30 /\ round 10 25 = 30 /\ round 10 (-24) = -20.
Proof. repeat split. Qed.
Example C03_ex_from_int8 : from_int 10000 5 = 50000. Proof. reflexivity. Qed.

(* f128.Int: the same laws over Int128 (values read with sval; fits128 = representable in 128 bits) *)
Theorem C03_f128_add_sub_exact : forall a b, wf a -> wf b ->
  (fits128 (sval a + sval b) -> sval (add128 a b) = sval a + sval b) /\ (fits128 (sval a - sval b) -> sval (sub128 a b) = sval a - sval b).
Proof. intros a b Wa Wb. split; intro F; [apply iadd_exact|apply isub_exact]; auto. Qed.
Print Assumptions C03_f128_add_sub_exact.
Theorem C03_f128_mul_truncates_toward_zero : forall M, 10 <= M <= 10000000000000000 -> forall a b, wf a -> wf b -> fits128 (sval a * sval b) ->
  wf (mul128 M a b) /\ sval (mul128 M a b) = Z.quot (sval a * sval b) M.
Proof. intros M HM a b Wa Wb. apply mul128_exact; auto. lia. Qed.
Print Assumptions C03_f128_mul_truncates_toward_zero.
Theorem C03_f128_div_truncates_toward_zero : forall M, 10 <= M <= 10000000000000000 -> forall a b, wf a -> wf b -> fits128 (sval a * M) ->
  (sval b = 0 -> div128 M a b = DivZero) /\
  (sval b <> 0 -> fits128 (Z.quot (sval a * M) (sval b)) -> exists q, div128 M a b = Ok q /\ wf q /\ sval q = Z.quot (sval a * M) (sval b)).
Proof. intros M HM a b Wa Wb. apply div128_exact; auto. lia. Qed.
Print Assumptions C03_f128_div_truncates_toward_zero.
Theorem C03_f128_trunc_exact : forall M, 10 <= M <= 10000000000000000 -> forall a, wf a ->
  wf (trunc128 M a) /\ sval (trunc128 M a) = M * Z.quot (sval a) M.
Proof. intros M HM a Wa. apply trunc128_exact; auto. lia. Qed.
Print Assumptions C03_f128_trunc_exact.
Theorem C03_f128_mod_is_remainder : forall M, 10 <= M <= 10000000000000000 -> forall a b, wf a -> wf b -> fits128 (sval a * M) ->
  (sval b = 0 -> mod128 M a b = DivZero) /\
  (sval b <> 0 -> fits128 (Z.quot (sval a * M) (sval b)) -> fits128 (sval b * M * Z.quot (sval a) (sval b)) ->
     exists r, mod128 M a b = Ok r /\ wf r /\ sval r = Z.rem (sval a) (sval b)).
Proof. intros M HM. apply mod128_exact. lia. Qed.
Print Assumptions C03_f128_mod_is_remainder.
Theorem C03_f128_ceil_least_whole_above : forall M, 10 <= M <= 10000000000000000 -> forall a, wf a -> fits128 (M * Z.quot (sval a) M + M) ->
  let c := sval (ceil128 M a) in
  c = (if (0 <? sval a) && negb (sval a =? M * Z.quot (sval a) M) then M * Z.quot (sval a) M + M else M * Z.quot (sval a) M) /\
  sval a <= c < sval a + M /\ Z.rem c M = 0.
Proof. intros M HM a Wa F. cbv zeta. rewrite (ceil128_exact M ltac:(lia) a Wa F). split; [reflexivity|apply ceilZ_spec; lia]. Qed.
Print Assumptions C03_f128_ceil_least_whole_above.
Theorem C03_f128_round_half_away_from_zero : forall M, 10 <= M <= 10000000000000000 -> forall a, wf a ->
  fits128 (M * Z.quot (sval a) M + M) -> fits128 (M * Z.quot (sval a) M - M) -> Z.even M = true ->
  let r := sval (round128 M a) in Z.rem r M = 0 /\ 2 * Z.abs (r - sval a) <= M /\ (2 * Z.abs (r - sval a) = M -> Z.abs (sval a) < Z.abs r).
Proof. intros M HM a Wa F1 F2 Hev. cbv zeta. rewrite (round128_exact M ltac:(lia) a Wa F1 F2). apply roundZ_spec; [lia|exact Hev]. Qed.
Print Assumptions C03_f128_round_half_away_from_zero.
Theorem C03_f128_min_max_inc_dec : forall M, 10 <= M <= 10000000000000000 -> forall a b, wf a -> wf b ->
  sval (min128 a b) = Z.min (sval a) (sval b) /\ sval (max128 a b) = Z.max (sval a) (sval b) /\
  (fits128 (sval a + M) -> sval (inc128 M a) = sval a + M) /\ (fits128 (sval a - M) -> sval (dec128 M a) = sval a - M).
Proof.
  intros M HM a b Wa Wb. destruct (minmax128_exact a b Wa Wb) as [A B]. destruct (incdec128_exact M ltac:(lia) a Wa) as [C D].
  split; [exact A|]. split; [exact B|]. split; [exact C|exact D].
Qed.
Print Assumptions C03_f128_min_max_inc_dec.
(* f128 integer conversions (Proofs128b.v). From is exact for every machine integer: signed kinds and the unsigned kinds below 64 bits
   arrive as int64 (flag false), uint64/uint/uintptr as the 64-bit word (flag true); no integer overflows 10^16 * 2^64 < 2^127 *)
Theorem C03_f128_from_int_exact : forall M, 10 <= M <= 10000000000000000 -> forall v,
  (- 9223372036854775808 <= v < 9223372036854775808 -> wf (from_int128 M false v) /\ sval (from_int128 M false v) = v * M) /\
  (0 <= v < 18446744073709551616 -> wf (from_int128 M true v) /\ sval (from_int128 M true v) = v * M).
Proof. intros M HM v. split; [apply from128_signed_exact|apply from128_unsigned_exact]; lia. Qed.
Print Assumptions C03_f128_from_int_exact.
(* As, for EVERY value: the quotient toward zero, read in the requested kind (w bits, signed or not) as Go's conversion does *)
Theorem C03_f128_as_int_is_narrowed_quotient : forall M, 10 <= M <= 10000000000000000 -> forall w signed a, 0 < w <= 64 -> wf a ->
  as_int128 M w signed a = kwrap w signed (Z.quot (sval a) M).
Proof. intros M HM. apply as128_is_narrowed_quotient. lia. Qed.
Print Assumptions C03_f128_as_int_is_narrowed_quotient.
Theorem C03_f128_as_from_roundtrip : forall M, 10 <= M <= 10000000000000000 -> forall w (signed : bool) v, 0 < w <= 64 ->
  (if signed then - 2 ^ (w - 1) <= v < 2 ^ (w - 1) else 0 <= v < 2 ^ w) ->
  as_int128 M w signed (from_int128 M (negb signed && (w =? 64)) v) = v.
Proof. intros M HM. apply as128_from128_roundtrip. lia. Qed.
Print Assumptions C03_f128_as_from_roundtrip.
Example C03_ex_f128_from_as : as_int128 1000 64 false (from_int128 1000 true 18446744073709551615) = 18446744073709551615 /\ as_int128 1000 8 true (from_int128 1000 false (-128)) = -128.
Proof. vm_compute. split; reflexivity. Qed.
(* fraction.go (ProofsFrac.v): Fraction{n, d}. Normalize makes a zero denominator 0/1 and moves a negative denominator's sign to the
   numerator; Value is n/d truncated toward zero to D places, and 0 for a zero denominator - when the intermediate values are
   representable. (When d * From(-1) wraps to zero - d = MinInt64 - the f64 Value divides by zero and Go panics: frac_value = None;
   the model keeps that case, the theorem excludes it by its hypotheses.) *)
Theorem C03_f64_fraction_value : forall M, 10 <= M <= 10000000000000000 -> forall n d, fits n -> fits d ->
  (d = 0 -> frac_norm M n d = (0, M) /\ frac_value M n d = Some 0) /\
  (0 < d -> frac_norm M n d = (n, d) /\ (fits (n * M) -> fits (Z.quot (n * M) d) -> frac_value M n d = Some (Z.quot (n * M) d))) /\
  (d < 0 -> fits (n * M) -> fits (- (n * M)) -> fits (- (d * M)) -> fits (- n) -> fits (- d) ->
     frac_norm M n d = (- n, - d) /\ (fits (Z.quot (n * M) d) -> frac_value M n d = Some (Z.quot (n * M) d))).
Proof.
  intros M HM n d _ _. destruct (frac64_spec M ltac:(lia) n d) as (Z0 & P & N). split; [exact Z0|]. split; [exact P|].
  intros Hd _ A B _ _. exact (N Hd A B).
Qed.
Print Assumptions C03_f64_fraction_value.
Theorem C03_f128_fraction_value : forall M, 10 <= M <= 10000000000000000 -> forall n d, wf n -> wf d ->
  (sval d = 0 -> exists q, frac_value128 M n d = Ok q /\ sval q = 0) /\
  (0 < sval d -> frac_norm128 M n d = (n, d) /\
     (fits128 (sval n * M) -> fits128 (Z.quot (sval n * M) (sval d)) -> exists q, frac_value128 M n d = Ok q /\ wf q /\ sval q = Z.quot (sval n * M) (sval d))) /\
  (sval d < 0 -> fits128 (sval n * M) -> fits128 (- (sval n * M)) -> fits128 (- (sval d * M)) -> fits128 (- sval n) -> fits128 (- sval d) ->
     sval (fst (frac_norm128 M n d)) = - sval n /\ sval (snd (frac_norm128 M n d)) = - sval d /\
     (fits128 (Z.quot (sval n * M) (sval d)) -> exists q, frac_value128 M n d = Ok q /\ wf q /\ sval q = Z.quot (sval n * M) (sval d))).
Proof.
  intros M HM n d Wn Wd. destruct (frac128_spec M ltac:(lia) n d Wn Wd) as (Z0 & P & N). split; [exact Z0|]. split; [exact P|].
  intros Hd _ A B _ _. exact (N Hd A B).
Qed.
Print Assumptions C03_f128_fraction_value.
Example C03_ex_fraction : frac_value 100 700 (-300) = Some (-233) /\ frac_value 10 5 (-9223372036854775808) = None.
Proof. vm_compute. split; reflexivity. Qed.
(* non-vacuity: a 39-digit f128 value meets the hypotheses (12345678901234567890123456789012.345678 * 2 in D6) *)
Example C03_ex_f128_mul : sval (mul128 1000000 (mk 669260594276 5027927973729429070) (From64 2000000)) = 2 * sval (mk 669260594276 5027927973729429070).
Proof. vm_compute. reflexivity. Qed.
