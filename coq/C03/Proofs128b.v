From Coq Require Import ZArith List Bool Lia.
From Verif Require Import common.Word64 common.Word64Facts C01.Model C01.ProofsArith C01.ProofsShift C01.ProofsInt C01.ProofsDiv3 C03.Model C03.ProofsZ C03.Proofs C03.Proofs128.
Open Scope Z_scope.

Section P.
Variable M : Z.
Hypothesis HM : 0 < M < SIGN.

(* at most 2^64 in magnitude, times M < 2^63, stays below 2^127 *)
Lemma from128_exact x v : wf x /\ sval x = v -> - W <= v <= W -> wf (Mul x (m128 M)) /\ sval (Mul x (m128 M)) = v * M.
Proof. intros X Hv. apply (imul_exact x _ v M X (m128_spec M HM)). unfold fits128. nia. Qed.
(* signed kinds arrive as int64(v) = v, uint64 and uint as the 64-bit word *)
Theorem from128_signed_exact v : - SIGN <= v < SIGN -> wf (from_int128 M false v) /\ sval (from_int128 M false v) = v * M.
Proof.
  intro Hv. unfold from_int128. rewrite swrap_small by exact Hv. apply from128_exact; [exact (From64_spec v Hv)|lia].
Qed.
Theorem from128_unsigned_exact v : 0 <= v < W -> wf (from_int128 M true v) /\ sval (from_int128 M true v) = v * M.
Proof.
  intro Hv. unfold from_int128. rewrite wrap_small by exact Hv. apply from128_exact; [split; [unfold wf; cbn [hi lo]; lia|reflexivity]|lia].
Qed.


Theorem as128_is_narrowed_quotient w signed a : 0 < w <= 64 -> wf a ->
  as_int128 M w signed a = kwrap w signed (Z.quot (sval a) M).
Proof.
  intros Hw Wa. destruct (idiv_m128 M HM a _ (conj Wa eq_refl)) as [Wq Sq]. unfold as_int128, kwrap.
  (* a kind of w <= 64 bits only looks at the quotient modulo 2^w, which the low word keeps *)
  rewrite <- (mod_pow2_mod (to_s64 (lo _)) 64 w), <- (mod_pow2_mod (Z.quot (sval a) M) 64 w) by lia. change (2 ^ 64) with W.
  rewrite to_s64_mod, (lo_sval _ Wq), Sq by apply Wq. reflexivity.
Qed.
Theorem as128_from128_roundtrip w (signed : bool) v : 0 < w <= 64 ->
  (if signed then - 2 ^ (w - 1) <= v < 2 ^ (w - 1) else 0 <= v < 2 ^ w) ->
  as_int128 M w signed (from_int128 M (negb signed && (w =? 64)) v) = v.
Proof.
  intros Hw Hv.
  assert (K : forall x, (wf x /\ sval x = v * M) -> as_int128 M w signed x = v).
  { intros x [Wx Sx]. rewrite as128_is_narrowed_quotient, Sx, Z.quot_mul by (assumption || lia). apply kwrap_small; [lia|exact Hv]. }
  assert (Mono : 2 ^ (w - 1) <= 2 ^ 63) by (apply Z.pow_le_mono_r; lia). change (2 ^ 63) with SIGN in Mono.
  apply K. destruct signed; cbn [negb andb]; [apply from128_signed_exact; lia|].
  destruct (Z.eqb_spec w 64) as [->|E]; [apply from128_unsigned_exact; exact Hv|].
  apply from128_signed_exact. assert (2 ^ w <= 2 ^ 63) by (apply Z.pow_le_mono_r; lia). change (2 ^ 63) with SIGN in *. lia.
Qed.
End P.
