(* C03 — f64: each method is its value-level counterpart of ProofsZ.v as long as the int64 wrap (swrap) is the identity on every
   intermediate result, which is what the fits hypotheses say. *)
From Coq Require Import ZArith List Bool Lia.
From Verif Require Import common.Word64 C03.Model C03.ProofsZ.
Open Scope Z_scope.

Definition fits (x : Z) : Prop := - SIGN <= x < SIGN.
Lemma swrap_small x : fits x -> swrap x = x.
Proof. unfold fits, swrap. intro H. destruct (Z.leb_spec SIGN (x mod W)); Z.div_mod_to_equations; lia. Qed.
Lemma swrap_fits x : fits (swrap x).
Proof. unfold fits, swrap. pose proof (Z.mod_pos_bound x W ltac:(lia)). destruct (Z.leb_spec SIGN (x mod W)); lia. Qed.

Lemma swrap_eqm x : exists k, swrap x = x + k * W.
Proof. unfold swrap. pose proof (Z.div_mod x W ltac:(lia)). destruct (Z.leb_spec SIGN (x mod W)); [exists (- (x / W) - 1)|exists (- (x / W))]; lia. Qed.
Lemma swrap_unique x y : fits y -> (exists k, x = y + k * W) -> swrap x = y.
Proof. intros Hy [k ->]. rewrite <- (swrap_small y Hy) at 2. unfold swrap. rewrite Z.mod_add by lia. reflexivity. Qed.

Section D.
Variable M : Z.
Hypothesis HM : 0 < M.

Theorem add_exact a b : fits (a + b) -> add a b = a + b.
Proof. apply swrap_small. Qed.
Theorem sub_exact a b : fits (a - b) -> sub a b = a - b.
Proof. apply swrap_small. Qed.
Theorem mul_exact a b : fits (a * b) -> mul M a b = Z.quot (a * b) M.
Proof. intro H. unfold mul. rewrite (swrap_small _ H). apply swrap_small, (quot_range SIGN); assumption. Qed.
Theorem div_exact a b : fits (a * M) -> fits (Z.quot (a * M) b) -> div M a b = Z.quot (a * M) b.
Proof. intros H1 H2. unfold div. rewrite (swrap_small _ H1). apply swrap_small, H2. Qed.
Theorem trunc_exact a : fits a -> trunc M a = truncZ M a.
Proof.
  intro H. unfold trunc. rewrite (swrap_small (Z.quot a M)) by (apply (quot_range SIGN); assumption).
  rewrite Z.mul_comm. apply swrap_small, (truncZ_range M HM SIGN), H.
Qed.

Theorem mod_exact a b : b <> 0 -> fits a -> fits (a * M) -> fits (Z.quot (a * M) b) -> fits (b * M * Z.quot a b) ->
  mod_ M a b = Z.rem a b.
Proof.
  intros Hb Ha H1 H2 H3. unfold mod_. rewrite (div_exact a b H1 H2), (trunc_exact _ H2), (truncZ_scaled_quot M HM a b Hb).
  rewrite mul_exact by (rewrite Z.mul_assoc; exact H3). rewrite (sub_scaled_quot M HM a b Hb).
  apply swrap_small, (rem_range SIGN); assumption.
Qed.

Theorem abs_exact a : fits a -> a <> - SIGN -> abs a = Z.abs a.
Proof. unfold fits. intros H Hn. unfold abs. destruct (Z.ltb_spec a 0); [rewrite swrap_small by (unfold fits; lia)|]; lia. Qed.
Theorem minmax_exact a b : min_ a b = Z.min a b /\ max_ a b = Z.max a b.
Proof. unfold min_, max_. destruct (Z.ltb_spec a b), (Z.ltb_spec b a); lia. Qed.
Theorem incdec_exact a : (fits (a + M) -> inc M a = a + M) /\ (fits (a - M) -> dec M a = a - M).
Proof. split; apply swrap_small. Qed.

Theorem ceil_exact a : fits a -> fits (truncZ M a + M) -> ceil M a = ceilZ M a.
Proof.
  intros H F. unfold ceil, ceilZ. rewrite (trunc_exact a H).
  destruct ((0 <? a) && negb (a =? truncZ M a)); [apply swrap_small, F|reflexivity].
Qed.
(* the two bounds keep M below 2^63, so that half of it is representable *)
Theorem round_exact a : fits a -> fits (truncZ M a + M) -> fits (truncZ M a - M) -> round M a = roundZ M a.
Proof.
  intros H F1 F2. unfold round, roundZ. rewrite (trunc_exact a H).
  assert (Fr : fits (a - truncZ M a)) by (destruct (truncZ_cut M HM a) as [P N]; unfold fits in *; lia).
  assert (Fh : fits (- Z.quot M 2)) by (pose proof (quot_nonneg_le M 2); unfold fits in *; lia).
  rewrite (swrap_small _ Fr), (swrap_small _ Fh). cbv zeta.
  destruct (Z.quot M 2 <=? a - truncZ M a); [apply swrap_small, F1|].
  destruct (a - truncZ M a <=? - Z.quot M 2); [apply swrap_small, F2|reflexivity].
Qed.

Theorem from_exact v : fits v -> fits (v * M) -> from_int M v = v * M.
Proof. intros H1 H2. unfold from_int. rewrite (swrap_small v H1). apply swrap_small, H2. Qed.
Definition kfits (w : Z) (signed : bool) (x : Z) : Prop :=
  match signed with true => - 2 ^ (w - 1) <= x < 2 ^ (w - 1) | false => 0 <= x < 2 ^ w end.
Lemma kwrap_small w signed x : 0 < w -> kfits w signed x -> kwrap w signed x = x.
Proof.
  intros Hw H. unfold kfits in H. unfold kwrap. assert (E2 : 2 ^ w = 2 * 2 ^ (w - 1)) by (rewrite <- Z.pow_succ_r by lia; f_equal; lia).
  rewrite E2. set (T := 2 ^ (w - 1)) in *.
  destruct signed; cbn [andb]; [|apply Z.mod_small; lia].
  destruct (Z_lt_le_dec x 0).
  - rewrite <- (Z.mod_add x 1), Z.mod_small by lia. rewrite (proj2 (Z.leb_le T _)) by lia. lia.
  - rewrite Z.mod_small by lia. rewrite (proj2 (Z.leb_gt T x)) by lia. reflexivity.
Qed.
Theorem as_from_roundtrip w signed v : 0 < w -> fits v -> fits (v * M) ->
  kfits w signed v ->
  as_int M w signed (from_int M v) = v /\ checked_as_int M w signed (from_int M v) = Some v.
Proof.
  intros Hw H1 H2 Hk. unfold checked_as_int, as_int. rewrite (from_exact v H1 H2), Z.quot_mul by lia.
  rewrite (kwrap_small w signed v Hw Hk), (from_exact v H1 H2), Z.eqb_refl. split; [reflexivity|].
  replace (v * M <? 0) with (v <? 0) by (destruct (Z.ltb_spec v 0), (Z.ltb_spec (v * M) 0); try reflexivity; nia).
  rewrite Bool.eqb_reflx. reflexivity.
Qed.
Theorem checked_as_sound w signed a n : 0 < w <= 64 -> fits a -> checked_as_int M w signed a = Some n ->
  n = as_int M w signed a /\ fits n -> fits (n * M) -> n * M = a.
Proof.
  intros Hw Ha H [En Fn] Fm. unfold checked_as_int in H. destruct (from_int M (as_int M w signed a) =? a) eqn:E; [|discriminate].
  apply Z.eqb_eq in E. rewrite <- En in E. rewrite (from_exact n Fn Fm) in E. exact E.
Qed.
End D.
