(* C03 — fraction.go: Value is Div on the normalised pair, so each type has a lemma for Normalize and one theorem. *)
From Coq Require Import ZArith List Bool Lia.
From Verif Require Import common.Word64 common.Word64Facts C01.Model C01.ProofsArith C01.ProofsInt C01.ProofsDiv3 C03.Model C03.ProofsZ C03.Proofs C03.Proofs128 C03.Proofs128b.
Open Scope Z_scope.

Section P.
Variable M : Z.
Hypothesis HM : 0 < M < SIGN.

Lemma from_one : from_int M 1 = M /\ from_int M (-1) = - M.
Proof. split; rewrite from_exact; unfold fits; lia. Qed.
Lemma mul_neg_unit x : fits (- (x * M)) -> mul M x (- M) = - x.
Proof. intro H. rewrite (mul_exact M (proj1 HM)) by (rewrite Z.mul_opp_r; exact H). apply quot_neg_mul. lia. Qed.

Lemma frac_norm_spec n d :
  (d = 0 -> frac_norm M n d = (0, M)) /\ (0 < d -> frac_norm M n d = (n, d)) /\
  (d < 0 -> fits (- (n * M)) -> fits (- (d * M)) -> frac_norm M n d = (- n, - d)).
Proof.
  destruct from_one as [F1 Fm1]. unfold frac_norm. rewrite F1, Fm1.
  destruct (Z.eqb_spec d 0); [repeat split; intros; (reflexivity || lia)|]. destruct (Z.ltb_spec d 0); repeat split; intros; try lia; try reflexivity.
  rewrite !mul_neg_unit by assumption. reflexivity.
Qed.
Lemma frac_value_norm n d n' d' : frac_norm M n d = (n', d') -> d' <> 0 -> fits (n' * M) -> fits (Z.quot (n' * M) d') ->
  frac_value M n d = Some (Z.quot (n' * M) d').
Proof. intros E Hd A B. unfold frac_value. rewrite E, (proj2 (Z.eqb_neq d' 0) Hd), (div_exact M n' d' A B). reflexivity. Qed.

Theorem frac64_spec n d :
  (d = 0 -> frac_norm M n d = (0, M) /\ frac_value M n d = Some 0) /\
  (0 < d -> frac_norm M n d = (n, d) /\ (fits (n * M) -> fits (Z.quot (n * M) d) -> frac_value M n d = Some (Z.quot (n * M) d))) /\
  (d < 0 -> fits (- (n * M)) -> fits (- (d * M)) ->
     frac_norm M n d = (- n, - d) /\ (fits (Z.quot (n * M) d) -> frac_value M n d = Some (Z.quot (n * M) d))).
Proof.
  destruct (frac_norm_spec n d) as (N0 & NP & NN). split; [|split].
  - intro D0. split; [exact (N0 D0)|]. rewrite (frac_value_norm n d 0 M (N0 D0)); [rewrite Z.quot_0_l by lia; reflexivity|lia|unfold fits; lia|rewrite Z.quot_0_l; unfold fits; lia].
  - intro Hd. split; [exact (NP Hd)|]. apply frac_value_norm; [exact (NP Hd)|lia].
  - intros Hd A B. split; [exact (NN Hd A B)|]. intro Q. rewrite <- (quot_opp_scaled M n d) in * by lia.
    apply frac_value_norm; [exact (NN Hd A B)|lia|rewrite Z.mul_opp_l; exact A|exact Q].
Qed.

Lemma mul128_neg_unit x : wf x -> fits128 (- (sval x * M)) ->
  wf (mul128 M x (from_int128 M false (-1))) /\ sval (mul128 M x (from_int128 M false (-1))) = - sval x.
Proof.
  intros Wx F. pose proof (from128_signed_exact M HM (-1) ltac:(lia)) as U. replace (-1 * M) with (- M) in U by lia.
  rewrite <- (quot_neg_mul M ltac:(lia) (sval x)). apply (mul128_exact M HM x _ _ _ (conj Wx eq_refl) U). rewrite Z.mul_opp_r. exact F.
Qed.
Lemma frac_norm128_spec n d : wf n -> wf d ->
  (sval d = 0 -> frac_norm128 M n d = (zero, from_int128 M false 1)) /\ (0 < sval d -> frac_norm128 M n d = (n, d)) /\
  (sval d < 0 -> fits128 (- (sval n * M)) -> fits128 (- (sval d * M)) ->
     let '(n', d') := frac_norm128 M n d in (wf n' /\ sval n' = - sval n) /\ (wf d' /\ sval d' = - sval d)).
Proof.
  intros Wn Wd. destruct (Ipredicates_spec d zero Wd wf_zero) as (_ & _ & EQ & LT & _). rewrite sval_zero in EQ, LT.
  unfold frac_norm128. rewrite EQ, LT. destruct (Z.eqb_spec (sval d) 0); [repeat split; intros; (reflexivity || lia)|].
  destruct (Z.ltb_spec (sval d) 0); repeat split; intros; try lia; try reflexivity; apply mul128_neg_unit; assumption.
Qed.

Theorem frac128_spec n d : wf n -> wf d ->
  (sval d = 0 -> exists q, frac_value128 M n d = Ok q /\ sval q = 0) /\
  (0 < sval d -> frac_norm128 M n d = (n, d) /\
     (fits128 (sval n * M) -> fits128 (Z.quot (sval n * M) (sval d)) -> exists q, frac_value128 M n d = Ok q /\ wf q /\ sval q = Z.quot (sval n * M) (sval d))) /\
  (sval d < 0 -> fits128 (- (sval n * M)) -> fits128 (- (sval d * M)) ->
     sval (fst (frac_norm128 M n d)) = - sval n /\ sval (snd (frac_norm128 M n d)) = - sval d /\
     (fits128 (Z.quot (sval n * M) (sval d)) -> exists q, frac_value128 M n d = Ok q /\ wf q /\ sval q = Z.quot (sval n * M) (sval d))).
Proof.
  intros Wn Wd. destruct (frac_norm128_spec n d Wn Wd) as (N0 & NP & NN). unfold frac_value128. split; [|split].
  - intro D0. rewrite (N0 D0).
    destruct (div128_exact M HM zero _ 0 _ (conj wf_zero sval_zero) (from128_signed_exact M HM 1 ltac:(lia))) as [_ K]; [unfold fits128; lia|].
    destruct K as (q & E & _ & Sq); [lia|cbn; unfold fits128; lia|]. exists q. split; [exact E|exact Sq].
  - intro Hd. rewrite (NP Hd). split; [reflexivity|]. intros A B. apply (div128_exact M HM n d _ _ (conj Wn eq_refl) (conj Wd eq_refl) A); [lia|exact B].
  - intros Hd A B. specialize (NN Hd A B). destruct (frac_norm128 M n d) as [n' d']. destruct NN as [N' D']. cbn [fst snd].
    split; [apply N'|]. split; [apply D'|]. rewrite <- (quot_opp_scaled M (sval n) (sval d)) by lia.
    apply (div128_exact M HM n' d' _ _ N' D'); [rewrite Z.mul_opp_l; exact A|lia].
Qed.
End P.
