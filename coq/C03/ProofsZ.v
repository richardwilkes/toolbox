(* C03 — the integer arithmetic behind the fixed-point methods, independent of the word size: f64 and f128 both compute these
   values as long as nothing overflows. *)
From Coq Require Import ZArith Bool Lia.
Open Scope Z_scope.

Lemma quot_abs_le a b : b <> 0 -> Z.abs (Z.quot a b) <= Z.abs a.
Proof.
  intro Hb. rewrite <- Z.quot_abs, Z.quot_div_nonneg by lia. generalize (Z.abs a) (Z.abs b) (Z.abs_nonneg a) (proj2 (Z.abs_pos b) Hb).
  intros x y Hx Hy. pose proof (Z.mul_div_le x y Hy). pose proof (Z.div_pos x y Hx Hy). nia.
Qed.
Lemma quot_nonneg_le a b : 0 < b -> 0 <= a -> 0 <= Z.quot a b <= a.
Proof. intros Hb Ha. pose proof (quot_abs_le a b ltac:(lia)). pose proof (Z.quot_pos a b Ha Hb). lia. Qed.
Lemma quot_range B a b : 0 < b -> - B <= a < B -> - B <= Z.quot a b < B.
Proof.
  intros Hb H. destruct (Z_le_gt_dec 0 a) as [P|N]; [pose proof (quot_nonneg_le a b Hb P); lia|].
  pose proof (quot_nonneg_le (- a) b Hb ltac:(lia)) as Q. rewrite Z.quot_opp_l in Q by lia. lia.
Qed.

Lemma rem_between a b : b <> 0 -> Z.abs (Z.rem a b) <= Z.abs a /\ 0 <= Z.rem a b * a.
Proof. intro Hb. split; [rewrite <- Z.rem_abs by exact Hb; apply Z.rem_le; lia | apply Z.rem_sign_mul; exact Hb]. Qed.
Lemma rem_range B a b : b <> 0 -> - B <= a < B -> - B <= Z.rem a b < B.
Proof. intros Hb H. destruct (rem_between a b Hb). nia. Qed.
Lemma mul_quot_range B a b : b <> 0 -> - B <= a < B -> - B <= b * Z.quot a b < B.
Proof. intros Hb H. destruct (rem_between a b Hb). pose proof (Z.quot_rem' a b). nia. Qed.

Lemma quot_rem_signs v m : 0 < m ->
  (0 <= v -> 0 <= Z.quot v m /\ 0 <= Z.rem v m) /\ (v <= 0 -> Z.quot v m <= 0 /\ Z.rem v m <= 0).
Proof.
  intro Hm. split; intro H; (split; [|apply Z.rem_nonneg || apply Z.rem_nonpos; lia]); [apply Z.quot_pos; lia|].
  pose proof (Z.quot_pos (- v) m ltac:(lia) ltac:(lia)) as Q. rewrite Z.quot_opp_l in Q by lia. lia.
Qed.
Lemma abs_quot_rem v m : 0 < m -> Z.abs (Z.quot v m) * m + Z.abs (Z.rem v m) = Z.abs v.
Proof.
  intro Hm. pose proof (Z.quot_rem' v m). destruct (quot_rem_signs v m Hm) as [P N].
  destruct (Z_le_gt_dec 0 v) as [H0|H0]; [destruct (P H0); rewrite !Z.abs_eq by lia|destruct (N ltac:(lia)); rewrite !Z.abs_neq by lia]; lia.
Qed.
Lemma mod_pow2_mod x n w : 0 <= w <= n -> (x mod 2 ^ n) mod 2 ^ w = x mod 2 ^ w.
Proof.
  intro H. symmetry. apply Znumtheory.Zmod_div_mod; try (apply Z.pow_pos_nonneg; lia). exists (2 ^ (n - w)). rewrite <- Z.pow_add_r by lia. f_equal. lia.
Qed.

Section Whole.
Variable M : Z.
Hypothesis HM : 0 < M.

Definition truncZ (a : Z) : Z := M * Z.quot a M.
Definition ceilZ (a : Z) : Z := if (0 <? a) && negb (a =? truncZ a) then truncZ a + M else truncZ a.
Definition roundZ (a : Z) : Z :=
  let h := Z.quot M 2 in if h <=? a - truncZ a then truncZ a + M else if a - truncZ a <=? - h then truncZ a - M else truncZ a.

Lemma truncZ_range B a : - B <= a < B -> - B <= truncZ a < B.
Proof. apply mul_quot_range. lia. Qed.
Lemma truncZ_cut a :
  (0 <= a -> 0 <= a - truncZ a < M /\ 0 <= truncZ a) /\ (a <= 0 -> - M < a - truncZ a <= 0 /\ truncZ a <= 0).
Proof.
  unfold truncZ. assert (E : M * Z.quot a M = a - Z.rem a M) by (rewrite Z.rem_eq by lia; ring). rewrite E. replace (a - (a - Z.rem a M)) with (Z.rem a M) by ring.
  destruct (rem_between a M ltac:(lia)). pose proof (Z.rem_bound_abs a M ltac:(lia)).
  split; intro; nia.
Qed.
Lemma whole_rem k : Z.rem (M * k) M = 0.
Proof. rewrite Z.mul_comm. apply Z.rem_mul. lia. Qed.
Lemma whole_rem_step k : Z.rem (M * k + M) M = 0 /\ Z.rem (M * k - M) M = 0.
Proof. split; [rewrite <- (whole_rem (k + 1))|rewrite <- (whole_rem (k - 1))]; f_equal; ring. Qed.

Lemma ceilZ_spec a : a <= ceilZ a < a + M /\ Z.rem (ceilZ a) M = 0.
Proof.
  unfold ceilZ. destruct (truncZ_cut a) as [P N]. pose proof (whole_rem (Z.quot a M)). pose proof (whole_rem_step (Z.quot a M)) as [? _].
  fold (truncZ a) in *. destruct (Z.ltb_spec 0 a), (Z.eqb_spec a (truncZ a)); cbn [andb negb]; split; try assumption; lia.
Qed.
Lemma roundZ_spec a : Z.even M = true ->
  Z.rem (roundZ a) M = 0 /\ 2 * Z.abs (roundZ a - a) <= M /\ (2 * Z.abs (roundZ a - a) = M -> Z.abs a < Z.abs (roundZ a)).
Proof.
  intro Hev. apply Z.even_spec in Hev. destruct Hev as [k Hk]. assert (Hh : Z.quot M 2 = k) by (rewrite Hk, Z.mul_comm; apply Z.quot_mul; lia).
  unfold roundZ. cbv zeta. rewrite Hh. destruct (truncZ_cut a) as [P N].
  pose proof (whole_rem (Z.quot a M)). pose proof (whole_rem_step (Z.quot a M)) as [? ?]. fold (truncZ a) in *.
  destruct (Z.leb_spec k (a - truncZ a)); [|destruct (Z.leb_spec (a - truncZ a) (- k))]; (split; [assumption|]); lia.
Qed.

(* the two steps of Mod: Trunc of the scaled quotient, and the product with the divisor taken back *)
Lemma truncZ_scaled_quot a b : b <> 0 -> truncZ (Z.quot (a * M) b) = M * Z.quot a b.
Proof. intro Hb. unfold truncZ. rewrite Z.quot_quot, Z.quot_mul_cancel_r by lia. reflexivity. Qed.
(* Normalize multiplies both parts by From(-1) = -M *)
Lemma quot_neg_mul a : Z.quot (a * - M) M = - a.
Proof. replace (a * - M) with ((- a) * M) by ring. apply Z.quot_mul. lia. Qed.
Lemma quot_opp_scaled n d : d <> 0 -> Z.quot (- n * M) (- d) = Z.quot (n * M) d.
Proof. intro H. replace (- n * M) with (- (n * M)) by ring. apply Z.quot_opp_opp, H. Qed.
Lemma sub_scaled_quot a b : b <> 0 -> a - Z.quot (b * (M * Z.quot a b)) M = Z.rem a b.
Proof. intro Hb. rewrite (Z.mul_comm M), Z.mul_assoc, Z.quot_mul, <- Z.rem_eq by lia. reflexivity. Qed.
End Whole.
