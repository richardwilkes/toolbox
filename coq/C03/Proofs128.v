(* C03 — f128.Int: the same formulas over Int128, read with sval. Each method yields the value-level result of ProofsZ.v through
   the C01 theorems for Int128, whose reduction into the two's-complement range (smod) is the identity under the fits128 hypotheses. *)
From Coq Require Import ZArith List Bool Lia.
From Verif Require Import common.Word64 common.Word64Facts C01.Model C01.ProofsArith C01.ProofsInt C01.ProofsDiv3 C03.Model C03.ProofsZ.
Open Scope Z_scope.

Definition fits128 (v : Z) : Prop := - P127 <= v < P127.

Section P.
Variable M : Z.
Hypothesis HM : 0 < M < SIGN.
Lemma m128_spec : wf (m128 M) /\ sval (m128 M) = M.
Proof. unfold m128. apply From64_spec. unfold int64. lia. Qed.

Lemma quot_bound a b : b <> 0 -> Z.abs (Z.quot a b) <= Z.abs a.
Proof. exact (quot_abs_le a b). Qed.

(* Every operation takes words with their values, wf x /\ sval x = v, to a word with its value, so a result is the next operand as it stands. *)
Lemma smod_exact r v : wf r /\ sval r = smod v -> fits128 v -> wf r /\ sval r = v.
Proof. intros [W S] F. split; [exact W|]. rewrite S. apply smod_small, F. Qed.
Lemma val_fits x v : wf x /\ sval x = v -> fits128 v.
Proof. intros [W <-]. apply sval_range, W. Qed.
Lemma iadd_exact a b u v : wf a /\ sval a = u -> wf b /\ sval b = v -> fits128 (u + v) -> wf (Add a b) /\ sval (Add a b) = u + v.
Proof. intros [Wa <-] [Wb <-]. apply smod_exact, IAdd_spec; assumption. Qed.
Lemma isub_exact a b u v : wf a /\ sval a = u -> wf b /\ sval b = v -> fits128 (u - v) -> wf (Sub a b) /\ sval (Sub a b) = u - v.
Proof. intros [Wa <-] [Wb <-]. apply smod_exact, ISub_spec; assumption. Qed.
Lemma imul_exact a b u v : wf a /\ sval a = u -> wf b /\ sval b = v -> fits128 (u * v) -> wf (Mul a b) /\ sval (Mul a b) = u * v.
Proof. intros [Wa <-] [Wb <-]. apply smod_exact, IMul_spec; assumption. Qed.
Lemma idiv_exact x d u v : wf x /\ sval x = u -> wf d /\ sval d = v -> v <> 0 -> fits128 (Z.quot u v) ->
  exists q, IDiv x d = Ok q /\ wf q /\ sval q = Z.quot u v.
Proof.
  intros [Wx <-] [Wd <-] Hd F. destruct (IDivMod_spec x d Wx Wd) as [_ K]. destruct (K Hd) as (q & r & _ & E & _ & Wq & _ & Sq & _).
  exists q. split; [exact E|]. apply smod_exact; auto.
Qed.
Lemma okdiv_exact x d u v : wf x /\ sval x = u -> wf d /\ sval d = v -> v <> 0 -> fits128 (Z.quot u v) ->
  wf (ok128 (IDiv x d)) /\ sval (ok128 (IDiv x d)) = Z.quot u v.
Proof. intros X D Hd F. destruct (idiv_exact x d u v X D Hd F) as (q & E & Q). rewrite E. exact Q. Qed.
Lemma idiv_m128 x v : wf x /\ sval x = v -> wf (ok128 (IDiv x (m128 M))) /\ sval (ok128 (IDiv x (m128 M))) = Z.quot v M.
Proof. intro X. apply (okdiv_exact x _ v M X m128_spec); [lia|]. apply (quot_range P127); [lia|exact (val_fits x v X)]. Qed.

Theorem mul128_exact a b u v : wf a /\ sval a = u -> wf b /\ sval b = v -> fits128 (u * v) -> wf (mul128 M a b) /\ sval (mul128 M a b) = Z.quot (u * v) M.
Proof. intros A B F. apply idiv_m128, imul_exact; assumption. Qed.
Theorem div128_exact a b u v : wf a /\ sval a = u -> wf b /\ sval b = v -> fits128 (u * M) ->
  (v = 0 -> div128 M a b = DivZero) /\
  (v <> 0 -> fits128 (Z.quot (u * M) v) -> exists q, div128 M a b = Ok q /\ wf q /\ sval q = Z.quot (u * M) v).
Proof.
  intros A B F. pose proof (imul_exact a (m128 M) u M A m128_spec F) as P. split.
  - destruct B as [Wb <-]. intro B0. apply (IDivMod_spec (Mul a (m128 M)) b (proj1 P) Wb), B0.
  - apply idiv_exact; assumption.
Qed.
Theorem trunc128_exact a v : wf a /\ sval a = v -> wf (trunc128 M a) /\ sval (trunc128 M a) = truncZ M v.
Proof.
  intro A. unfold truncZ. rewrite (Z.mul_comm M). apply (imul_exact _ _ _ M (idiv_m128 a v A) m128_spec).
  rewrite Z.mul_comm. apply (truncZ_range M ltac:(lia) P127), (val_fits a v A).
Qed.

Theorem minmax128_exact a b : wf a -> wf b -> sval (min128 a b) = Z.min (sval a) (sval b) /\ sval (max128 a b) = Z.max (sval a) (sval b).
Proof.
  intros Wa Wb. destruct (Ipredicates_spec a b Wa Wb) as (G & _ & _ & L & _). unfold min128, max128. rewrite G, L.
  split; [destruct (Z.ltb_spec (sval a) (sval b)); lia|destruct (Z.ltb_spec (sval b) (sval a)); lia].
Qed.
Theorem incdec128_exact a : wf a -> (fits128 (sval a + M) -> sval (inc128 M a) = sval a + M) /\ (fits128 (sval a - M) -> sval (dec128 M a) = sval a - M).
Proof. intros Wa. split; intro F; [apply iadd_exact|apply isub_exact]; auto using m128_spec. Qed.

Theorem ceil128_exact a : wf a -> fits128 (truncZ M (sval a) + M) -> sval (ceil128 M a) = ceilZ M (sval a).
Proof.
  intros Wa F. destruct (trunc128_exact a _ (conj Wa eq_refl)) as [Wt St].
  destruct (Ipredicates_spec a zero Wa wf_zero) as (G & _). destruct (Ipredicates_spec a (trunc128 M a) Wa Wt) as (_ & _ & Eq & _).
  unfold ceil128, ceilZ. cbv zeta. rewrite G, Eq, sval_zero, St. destruct ((0 <? sval a) && negb (sval a =? truncZ M (sval a))); [|exact St].
  apply (iadd_exact _ _ _ M (conj Wt St) m128_spec F).
Qed.

Theorem round128_exact a : wf a -> fits128 (truncZ M (sval a) + M) -> fits128 (truncZ M (sval a) - M) ->
  sval (round128 M a) = roundZ M (sval a).
Proof.
  intros Wa F1 F2. pose proof (trunc128_exact a _ (conj Wa eq_refl)) as T. pose proof (sval_range a Wa) as Ra.
  pose proof (quot_nonneg_le M 2 ltac:(lia) ltac:(lia)) as Qh.
  destruct (okdiv_exact (m128 M) (From64 2) M 2 m128_spec (From64_spec 2 ltac:(unfold int64; lia))) as [Wh Sh]; [lia|unfold fits128; lia|].
  destruct (Neg_spec _ Wh) as [Wn Sn]. rewrite Sh, smod_small in Sn by lia.
  destruct (isub_exact a (trunc128 M a) _ _ (conj Wa eq_refl) T) as [Wr Sr].
  { destruct (truncZ_cut M ltac:(lia) (sval a)) as [P N]. unfold fits128. lia. }
  destruct (Ipredicates_spec _ _ Wr Wh) as (_ & Ge & _). destruct (Ipredicates_spec _ _ Wr Wn) as (_ & _ & _ & _ & Le).
  unfold round128, roundZ. cbv zeta. rewrite Ge, Le, Sr, Sh, Sn.
  destruct (Z.quot M 2 <=? sval a - truncZ M (sval a)); [apply (iadd_exact _ _ _ M T m128_spec F1)|].
  destruct (sval a - truncZ M (sval a) <=? - Z.quot M 2); [apply (isub_exact _ _ _ M T m128_spec F2)|apply T].
Qed.

Theorem mod128_exact a b : wf a -> wf b -> fits128 (sval a * M) ->
  (sval b = 0 -> mod128 M a b = DivZero) /\
  (sval b <> 0 -> fits128 (Z.quot (sval a * M) (sval b)) -> fits128 (sval b * M * Z.quot (sval a) (sval b)) ->
     exists r, mod128 M a b = Ok r /\ wf r /\ sval r = Z.rem (sval a) (sval b)).
Proof.
  intros Wa Wb F. destruct (div128_exact a b _ _ (conj Wa eq_refl) (conj Wb eq_refl) F) as [D0 D1]. unfold mod128. split.
  - intro B0. rewrite (D0 B0). reflexivity.
  - intros B0 Fq F3. destruct (D1 B0 Fq) as (q & E & Q). rewrite E. eexists. split; [reflexivity|].
    pose proof (trunc128_exact q _ Q) as T. rewrite (truncZ_scaled_quot M ltac:(lia) _ _ B0) in T.
    rewrite <- (sub_scaled_quot M ltac:(lia) _ _ B0). apply (isub_exact a _ _ _ (conj Wa eq_refl)).
    + apply (mul128_exact b _ _ _ (conj Wb eq_refl) T). rewrite Z.mul_assoc. exact F3.
    + rewrite (sub_scaled_quot M ltac:(lia) _ _ B0). apply (rem_range P127); [exact B0|apply sval_range, Wa].
Qed.
End P.
