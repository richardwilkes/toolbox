(* C20 — NaturalCmp is a lexicographic comparison: a string is a sequence of tokens (a run of digits, or one other character),
   the first differing pair of tokens decides, and the loop is that composition written out *)
From Coq Require Import ZArith List Bool Lia Permutation Sorted.
From Verif Require Import C20.Model.
Import ListNotations.
Open Scope Z_scope.

Definition thn (c r : Z) : Z := if c =? 0 then r else c.
(* results for (a,b), (b,c), (a,c) that fit together; the second half is what lets coherence pass through thn *)
Definition coh (ab bc ac : Z) : Prop := ab <= 0 -> bc <= 0 -> ac <= 0 /\ (ac = 0 -> ab = 0 /\ bc = 0).
Definition sgn3 (c : Z) : Prop := c = -1 \/ c = 0 \/ c = 1.

Lemma thn_spec c r : (c = 0 /\ thn c r = r) \/ (c <> 0 /\ thn c r = c).
Proof. unfold thn. destruct (Z.eqb_spec c 0); auto. Qed.
Lemma coh_thn c1 c2 c3 r1 r2 r3 : coh c1 c2 c3 -> coh r1 r2 r3 -> coh (thn c1 r1) (thn c2 r2) (thn c3 r3).
Proof.
  unfold coh. destruct (thn_spec c1 r1) as [[? ->]|[? ->]], (thn_spec c2 r2) as [[? ->]|[? ->]], (thn_spec c3 r3) as [[? ->]|[? ->]]; lia.
Qed.
Lemma thn_opp c r : thn (- c) (- r) = - thn c r.
Proof. unfold thn. destruct (Z.eqb_spec c 0), (Z.eqb_spec (- c) 0); lia. Qed.
Lemma thn_zero c r : thn c r = 0 -> c = 0 /\ r = 0.
Proof. destruct (thn_spec c r) as [[? ->]|[? ->]]; lia. Qed.
Lemma thn_sgn3 c r : sgn3 c -> sgn3 r -> sgn3 (thn c r).
Proof. destruct (thn_spec c r) as [[? ->]|[? ->]]; auto. Qed.
Lemma thn_assoc a b r : thn (thn a b) r = thn a (thn b r).
Proof. unfold thn. destruct (a =? 0) eqn:E; [reflexivity | rewrite E; reflexivity]. Qed.

(* the shapes in which the model spells out thn *)
Definition zc (x y : Z) : Z := if x <? y then -1 else if y <? x then 1 else 0.
Lemma zc_spec x y : (x < y /\ zc x y = -1) \/ (x = y /\ zc x y = 0) \/ (y < x /\ zc x y = 1).
Proof. unfold zc. destruct (Z.ltb_spec x y), (Z.ltb_spec y x); lia. Qed.
Lemma thn_zc x y r : (if x <? y then -1 else if y <? x then 1 else r) = thn (zc x y) r.
Proof. unfold zc, thn. destruct (x <? y); [reflexivity|]. destruct (y <? x); reflexivity. Qed.
Lemma thn_nat m n r : (if (m <? n)%nat then -1 else if (n <? m)%nat then 1 else r) = thn (zc (Z.of_nat m) (Z.of_nat n)) r.
Proof.
  rewrite <- thn_zc.
  destruct (Nat.ltb_spec m n), (Nat.ltb_spec n m), (Z.ltb_spec (Z.of_nat m) (Z.of_nat n)), (Z.ltb_spec (Z.of_nat n) (Z.of_nat m)); try reflexivity; lia.
Qed.
Lemma thn_if_nonzero c r : (if negb (c =? 0) then c else r) = thn c r.
Proof. unfold thn. destruct (c =? 0); reflexivity. Qed.

(* a three-valued comparison: antisymmetric, in {-1,0,1}, coherent on every triple; equal arguments then compare 0 *)
Record ord {A} (f : A -> A -> Z) : Prop := {
  o_anti : forall a b, f a b = - f b a;
  o_sgn : forall a b, sgn3 (f a b);
  o_coh : forall a b c, coh (f a b) (f b c) (f a c) }.
Lemma ord_refl A (f : A -> A -> Z) a : ord f -> f a a = 0.
Proof. intros F. pose proof (o_anti f F a a). lia. Qed.
(* ord passes through thn, through a function on the arguments, and to pointwise equal comparisons *)
Lemma ord_thn A (f g : A -> A -> Z) : ord f -> ord g -> ord (fun a b => thn (f a b) (g a b)).
Proof.
  intros F G. split; intros.
  - rewrite (o_anti f F a b), (o_anti g G a b). apply thn_opp.
  - apply thn_sgn3; [apply F | apply G].
  - apply coh_thn; [apply F | apply G].
Qed.
Lemma ord_on A B (h : A -> B) (f : B -> B -> Z) : ord f -> ord (fun a b => f (h a) (h b)).
Proof. intros F. split; intros; apply F. Qed.
Lemma ord_ext A (f g : A -> A -> Z) : (forall a b, f a b = g a b) -> ord g -> ord f.
Proof. intros E G. split; intros; rewrite !E; apply G. Qed.

Lemma ord_zc : ord zc.
Proof.
  split.
  - intros x y. destruct (zc_spec x y) as [[? ->]|[[? ->]|[? ->]]], (zc_spec y x) as [[? ->]|[[? ->]|[? ->]]]; lia.
  - intros x y. unfold sgn3. destruct (zc_spec x y) as [[? ->]|[[? ->]|[? ->]]]; auto.
  - intros x y z. unfold coh.
    destruct (zc_spec x y) as [[? ->]|[[? ->]|[? ->]]], (zc_spec y z) as [[? ->]|[[? ->]|[? ->]]], (zc_spec x z) as [[? ->]|[[? ->]|[? ->]]]; lia.
Qed.
Lemma zc_zero x y : zc x y = 0 -> x = y.
Proof. destruct (zc_spec x y) as [[? ->]|[[? ->]|[? ->]]]; lia. Qed.

(* the lexicographic comparison of two lists by a comparison of their elements *)
Fixpoint lex {A} (f : A -> A -> Z) (l m : list A) : Z :=
  match l, m with
  | [], [] => 0 | [], _ => -1 | _, [] => 1
  | x :: l', y :: m' => thn (f x y) (lex f l' m')
  end.
Lemma ord_lex A (f : A -> A -> Z) : ord f -> ord (lex f).
Proof.
  intros F. split.
  - induction a as [|x a IH]; destruct b as [|y b]; try reflexivity. cbn [lex]. rewrite (o_anti f F x y), (IH b). apply thn_opp.
  - induction a as [|x a IH]; destruct b as [|y b]; try (unfold sgn3; cbn; auto; fail). apply thn_sgn3; [apply F | apply IH].
  - induction a as [|x a IH]; destruct b as [|y b], c as [|z c]; cbn [lex]; try (unfold coh; lia). apply coh_thn; [apply F | apply IH].
Qed.
Lemma lex_zero A (f : A -> A -> Z) : (forall x y, f x y = 0 -> x = y) -> forall l m, lex f l m = 0 -> l = m.
Proof.
  intros Z0. induction l as [|x l IH]; destruct m as [|y m]; intros H; try discriminate; [reflexivity|].
  apply thn_zero in H. destruct H as [H1 H2]. f_equal; [apply Z0, H1 | apply IH, H2].
Qed.

Lemma lexcmp_lex a : forall b, lexcmp a b = lex zc a b.
Proof. induction a as [|x a IH]; destruct b as [|y b]; try reflexivity. cbn [lexcmp lex]. rewrite thn_zc, IH. reflexivity. Qed.

(* the key of a run of digits: the significant digits and the number of leading zeros *)
Definition key : Type := str * nat.
Definition kcmp (p q : key) : Z :=
  thn (zc (Z.of_nat (length (fst p))) (Z.of_nat (length (fst q)))) (thn (lexcmp (fst p) (fst q)) (zc (Z.of_nat (snd p)) (Z.of_nat (snd q)))).
Lemma ord_kcmp : ord kcmp.
Proof.
  apply ord_thn; [apply (ord_on _ _ (fun p : key => Z.of_nat (length (fst p)))), ord_zc|].
  apply ord_thn; [|apply (ord_on _ _ (fun p : key => Z.of_nat (snd p))), ord_zc].
  apply (ord_on _ _ fst), (ord_ext _ _ _ lexcmp_lex), ord_lex, ord_zc.
Qed.
Lemma kcmp_zero p q : kcmp p q = 0 -> p = q.
Proof.
  destruct p as [n1 z1], q as [n2 z2]. unfold kcmp. cbn [fst snd]. intros H. apply thn_zero in H. destruct H as [_ H]. apply thn_zero in H. destruct H as [H2 H3].
  apply zc_zero in H3. rewrite lexcmp_lex in H2. apply (lex_zero _ _ zc_zero) in H2. f_equal; [exact H2 | lia].
Qed.

Lemma skip0_spec s : forall t z, skip0 s = (t, z) -> s = repeat 48 z ++ t.
Proof.
  induction s as [|c s IH]; cbn; intros t z H. { injection H as <- <-. reflexivity. }
  destruct (c =? 48) eqn:E.
  - destruct (skip0 s) as [t' z'] eqn:S. injection H as <- <-. apply Z.eqb_eq in E. subst c. cbn. f_equal. apply IH. reflexivity.
  - injection H as <- <-. reflexivity.
Qed.
Lemma span_spec s : forall n u, span_digits s = (n, u) -> s = n ++ u.
Proof.
  induction s as [|c s IH]; cbn; intros n u H. { injection H as <- <-. reflexivity. }
  destruct (is_digit c).
  - destruct (span_digits s) as [d t] eqn:S. injection H as <- <-. cbn. f_equal. apply IH. reflexivity.
  - injection H as <- <-. reflexivity.
Qed.
Definition dkey (s : str) : key * str := let '(t, z) := skip0 s in let '(n, u) := span_digits t in (n, z, u).
Lemma dkey_spec s n z u : dkey s = (n, z, u) -> s = repeat 48 z ++ n ++ u.
Proof.
  unfold dkey. destruct (skip0 s) as [t z'] eqn:S. destruct (span_digits t) as [n' u'] eqn:P. intros H. injection H as <- <- <-.
  rewrite (skip0_spec _ _ _ S), (span_spec _ _ _ P). reflexivity.
Qed.
(* a digit chunk is never empty: leading zeros + significant digits >= 1 *)
Lemma dkey_nonempty c r n z u : is_digit c = true -> dkey (c :: r) = (n, z, u) -> (0 < z + length n)%nat.
Proof.
  intros D. unfold dkey. cbn [skip0]. destruct (c =? 48).
  - destruct (skip0 r) as [t' z']. destruct (span_digits t'). intros H. injection H as <- <- <-. lia.
  - cbn [span_digits]. rewrite D. destruct (span_digits r). intros H. injection H as <- <- <-. cbn. lia.
Qed.

Inductive tok := TNum (k : key) | TChr (c : Z).
Definition tcmp (s t : tok) : Z :=
  match s, t with
  | TNum p, TNum q => kcmp p q
  | TNum _, TChr _ => -1
  | TChr _, TNum _ => 1
  | TChr a, TChr b => zc a b
  end.
Definition next (ci : bool) (c : Z) (r : str) : tok * str :=
  if is_digit c then let '(k, u) := dkey (c :: r) in (TNum k, u) else (TChr (fold ci c), r).
Definition untok (t : tok) (u : str) : str := match t with TNum (n, z) => repeat 48 z ++ n ++ u | TChr c => c :: u end.

Lemma next_len ci c r : (length (snd (next ci c r)) < length (c :: r))%nat.
Proof.
  unfold next. destruct (is_digit c) eqn:D; [|cbn; lia]. destruct (dkey (c :: r)) as [[n z] u] eqn:K. cbn [snd].
  pose proof (dkey_nonempty _ _ _ _ _ D K). rewrite (dkey_spec _ _ _ _ K), !app_length, repeat_length. lia.
Qed.
Lemma next_untok c r : untok (fst (next false c r)) (snd (next false c r)) = c :: r.
Proof. unfold next. destruct (is_digit c); [|reflexivity]. destruct (dkey (c :: r)) as [[n z] u] eqn:K. symmetry. exact (dkey_spec _ _ _ _ K). Qed.

Lemma ord_tcmp : ord tcmp.
Proof.
  split.
  - intros [p|x] [q|y]; try reflexivity; [apply ord_kcmp | apply ord_zc].
  - intros [p|x] [q|y]; try (unfold sgn3; cbn; auto; fail); [apply ord_kcmp | apply ord_zc].
  - intros [p|x] [q|y] [r|z]; cbn [tcmp]; try (unfold coh; lia); [apply ord_kcmp | apply ord_zc].
Qed.
Lemma tcmp_zero s t : tcmp s t = 0 -> s = t.
Proof. destruct s, t; cbn [tcmp]; intros H; try discriminate; f_equal; [apply kcmp_zero, H | apply zc_zero, H]. Qed.

(* the tokens of a string, and the loop as their lexicographic comparison *)
Fixpoint toks (fuel : nat) (ci : bool) (s : str) : list tok :=
  match fuel, s with
  | S f, c :: r => fst (next ci c r) :: toks f ci (snd (next ci c r))
  | _, _ => []
  end.
Lemma loop_lex ci : forall f a b, loop f ci a b = lex tcmp (toks f ci a) (toks f ci b).
Proof.
  induction f as [|f IH]; intros a b; [reflexivity|]. destruct a as [|c1 r1], b as [|c2 r2]; try reflexivity.
  cbn [toks lex]. rewrite <- IH. cbn [loop]. unfold next. destruct (is_digit c1), (is_digit c2); cbn [Bool.eqb negb].
  - unfold dkey. destruct (skip0 (c1 :: r1)) as [t1 z1], (skip0 (c2 :: r2)) as [t2 z2].
    destruct (span_digits t1) as [n1 u1], (span_digits t2) as [n2 u2]. cbn [fst snd tcmp]. unfold kcmp. cbn [fst snd].
    rewrite !thn_assoc, <- !thn_nat, <- thn_if_nonzero. reflexivity.
  - destruct (dkey (c1 :: r1)) as [k1 u1]. reflexivity.
  - destruct (dkey (c2 :: r2)) as [k2 u2]. reflexivity.
  - apply thn_zc.
Qed.
Lemma toks_fuel ci : forall F F' s, (length s <= F)%nat -> (length s <= F')%nat -> toks F ci s = toks F' ci s.
Proof.
  induction F as [|F IH]; intros F' s L L'; destruct s as [|c r]; cbn in L, L'; try lia; [destruct F'; reflexivity..|].
  destruct F' as [|F']; [lia|]. cbn [toks]. f_equal. pose proof (next_len ci c r). cbn in H. apply IH; lia.
Qed.
Lemma untok_toks : forall F s, (length s <= F)%nat -> fold_right untok [] (toks F false s) = s.
Proof.
  induction F as [|F IH]; intros s L; destruct s as [|c r]; cbn in L; try lia; try reflexivity.
  cbn [toks fold_right]. pose proof (next_len false c r). cbn in H. rewrite IH by lia. apply next_untok.
Qed.

Definition tokens (ci : bool) (s : str) : list tok := toks (length s) ci s.
(* lp false is the model's cmp_cs *)
Definition lp (ci : bool) (a b : str) : Z := loop (S (length a + length b)) ci a b.
Lemma lp_lex ci a b : lp ci a b = lex tcmp (tokens ci a) (tokens ci b).
Proof. unfold lp, tokens. rewrite loop_lex. f_equal; apply toks_fuel; lia. Qed.
Lemma ord_lp ci : ord (lp ci).
Proof. apply (ord_ext _ _ _ (lp_lex ci)), (ord_on _ _ (tokens ci)), ord_lex, ord_tcmp. Qed.
Lemma lp_zero_eq a b : lp false a b = 0 -> a = b.
Proof.
  rewrite lp_lex. intros H. apply (lex_zero _ _ tcmp_zero) in H.
  rewrite <- (untok_toks (length a) a), <- (untok_toks (length b) b) by lia. exact (f_equal (fold_right untok []) H).
Qed.

Lemma natural_cmp_lp a b ci : natural_cmp a b ci = if ci then thn (lp true a b) (lp false a b) else lp false a b.
Proof. destruct ci; reflexivity. Qed.
Lemma ord_natural_cmp ci : ord (fun a b => natural_cmp a b ci).
Proof.
  apply (ord_ext _ _ _ (fun a b => natural_cmp_lp a b ci)).
  destruct ci; [exact (ord_thn _ _ _ (ord_lp true) (ord_lp false)) | exact (ord_lp false)].
Qed.

Theorem natural_cmp_antisym a b ci : natural_cmp a b ci = - natural_cmp b a ci.
Proof. apply (ord_natural_cmp ci). Qed.
Theorem natural_cmp_coh a b c ci : coh (natural_cmp a b ci) (natural_cmp b c ci) (natural_cmp a c ci).
Proof. apply (ord_natural_cmp ci). Qed.
Theorem natural_cmp_trans a b c ci :
  natural_cmp a b ci <= 0 -> natural_cmp b c ci <= 0 -> natural_cmp a c ci <= 0.
Proof. intros H1 H2. apply (natural_cmp_coh a b c ci H1 H2). Qed.
Theorem natural_cmp_zero_iff a b ci : natural_cmp a b ci = 0 <-> a = b.
Proof.
  split; [|intros ->; apply (ord_refl _ _ b (ord_natural_cmp ci))].
  rewrite natural_cmp_lp. destruct ci; [intros H; apply thn_zero in H; apply lp_zero_eq, H | apply lp_zero_eq].
Qed.
Theorem natural_cmp_range a b ci : natural_cmp a b ci = -1 \/ natural_cmp a b ci = 0 \/ natural_cmp a b ci = 1.
Proof. apply (ord_natural_cmp ci). Qed.

Theorem natural_less_spec a b ci : natural_less a b ci = true <-> natural_cmp a b ci < 0.
Proof. unfold natural_less. apply Z.ltb_lt. Qed.

(* the premises of sort_by_spec in one statement; more than the strict weak order slices.SortFunc asks for *)
Theorem natural_cmp_total_order ci :
  (forall a b, natural_cmp a b ci = - natural_cmp b a ci) /\
  (forall a b c, natural_cmp a b ci <= 0 -> natural_cmp b c ci <= 0 -> natural_cmp a c ci <= 0) /\
  (forall a b, natural_cmp a b ci = 0 <-> a = b).
Proof.
  split; [intros; apply natural_cmp_antisym|]. split; [intros a b c; apply natural_cmp_trans|]. intros; apply natural_cmp_zero_iff.
Qed.

Section SortBy.
  Variable cmp : str -> str -> Z.
  Hypothesis anti : forall a b, cmp a b = - cmp b a.
  Hypothesis trans : forall a b c, cmp a b <= 0 -> cmp b c <= 0 -> cmp a c <= 0.
  Hypothesis zero : forall a b, cmp a b = 0 <-> a = b.
  Definition le_by (a b : str) : Prop := cmp a b <= 0.

  Lemma le_by_refl a : le_by a a.
  Proof. unfold le_by. assert (cmp a a = 0) by (apply zero; reflexivity). lia. Qed.

  Lemma le_by_Forall x y l : le_by x y -> Forall (le_by y) l -> Forall (le_by x) l.
  Proof. intros H. apply Forall_impl. intros z. apply trans, H. Qed.

  Lemma insert_perm x l : Permutation (x :: l) (insert_by cmp x l).
  Proof.
    induction l as [|y l IH]; cbn; [reflexivity|]. destruct (cmp x y <=? 0); [reflexivity|].
    rewrite perm_swap. constructor. exact IH.
  Qed.
  Lemma insert_sorted x l : StronglySorted le_by l -> StronglySorted le_by (insert_by cmp x l).
  Proof.
    induction l as [|y l IH]; cbn; intros S. { repeat constructor. }
    inversion S as [|? ? S' F]; subst.
    destruct (cmp x y <=? 0) eqn:E.
    - apply Z.leb_le in E. constructor; [assumption|]. constructor; [exact E | exact (le_by_Forall x y l E F)].
    - apply Z.leb_gt in E. constructor; [apply IH; assumption|].
      assert (Hyx : le_by y x) by (unfold le_by; rewrite anti; lia).
      eapply Permutation_Forall; [apply insert_perm|]. constructor; assumption.
  Qed.
  Lemma sort_perm l : Permutation l (sort_by cmp l).
  Proof. induction l as [|x l IH]; cbn; [reflexivity|]. rewrite <- insert_perm. constructor. exact IH. Qed.
  Lemma sort_sorted l : StronglySorted le_by (sort_by cmp l).
  Proof. induction l as [|x l IH]; cbn; [constructor|]. apply insert_sorted. exact IH. Qed.

  Lemma sorted_by_iff l : sorted_by cmp l = true <-> StronglySorted le_by l.
  Proof.
    induction l as [|x l IH]; [split; constructor|]. destruct l as [|y l]; [split; repeat constructor|].
    cbn [sorted_by]. rewrite andb_true_iff, Z.leb_le, IH. split.
    - intros [H1 S]. constructor; [exact S|]. inversion S as [|? ? S' F]; subst. constructor; [exact H1 | exact (le_by_Forall x y l H1 F)].
    - intros S. inversion S as [|? ? S' F]; subst. inversion F; subst. split; assumption.
  Qed.

  Lemma head_le x l y l' : Forall (le_by x) l -> Permutation (x :: l) (y :: l') -> le_by x y.
  Proof.
    intros F P. assert (I : In y (x :: l)) by (rewrite P; left; reflexivity).
    destruct I as [->|I]; [apply le_by_refl|]. rewrite Forall_forall in F. apply F, I.
  Qed.
  Lemma sorted_perm_unique : forall l l', StronglySorted le_by l -> StronglySorted le_by l' -> Permutation l l' -> l = l'.
  Proof.
    induction l as [|x l IH]; intros l' S S' P.
    - apply Permutation_nil in P. subst. reflexivity.
    - destruct l' as [|y l']; [apply Permutation_sym, Permutation_nil in P; discriminate|].
      inversion S as [|? ? S1 F1]; subst. inversion S' as [|? ? S2 F2]; subst.
      pose proof (head_le x l y l' F1 P) as Hxy. pose proof (head_le y l' x l F2 (Permutation_sym P)) as Hyx.
      assert (x = y) by (apply zero; unfold le_by in *; rewrite anti in Hyx; lia). subst y.
      f_equal. apply IH; try assumption. eapply Permutation_cons_inv; exact P.
  Qed.

  Theorem sort_by_spec l : Permutation l (sort_by cmp l) /\ sorted_by cmp (sort_by cmp l) = true /\
    forall out, Permutation l out -> sorted_by cmp out = true -> out = sort_by cmp l.
  Proof.
    split; [apply sort_perm|]. split; [apply sorted_by_iff, sort_sorted|]. intros out P S.
    apply sorted_perm_unique; [apply sorted_by_iff; exact S | apply sort_sorted |]. rewrite <- P. apply sort_perm.
  Qed.
End SortBy.

Lemma desc_anti a b : natural_cmp b a true = - natural_cmp a b true.
Proof. apply natural_cmp_antisym. Qed.

Theorem sort_asc_spec l : Permutation l (sort_asc l) /\ sorted_by (fun a b => natural_cmp a b true) (sort_asc l) = true /\
  forall out, Permutation l out -> sorted_by (fun a b => natural_cmp a b true) out = true -> out = sort_asc l.
Proof. destruct (natural_cmp_total_order true) as (A & T & Z0). exact (sort_by_spec _ A T Z0 l). Qed.
(* the reversed comparison is a total order as well *)
Theorem sort_desc_spec l : Permutation l (sort_desc l) /\ sorted_by (fun a b => natural_cmp b a true) (sort_desc l) = true /\
  forall out, Permutation l out -> sorted_by (fun a b => natural_cmp b a true) out = true -> out = sort_desc l.
Proof.
  destruct (natural_cmp_total_order true) as (A & T & Z0). apply sort_by_spec.
  - intros a b. apply A.
  - intros a b c H1 H2. exact (T c b a H2 H1).
  - intros a b. rewrite Z0. split; congruence.
Qed.
