(* C20 — property theorems and examples, for both modes and all byte strings. Each theorem is closed by [exact] of a lemma
   from Proofs.v and followed by Print Assumptions. *)
From Coq Require Import ZArith List Bool Permutation.
From Verif Require Import C20.Model C20.Proofs.
Import ListNotations.
Open Scope Z_scope.

Theorem C20_antisymmetric : forall (a b : str) (ci : bool), natural_cmp a b ci = - natural_cmp b a ci.
Proof. exact natural_cmp_antisym. Qed.
Print Assumptions C20_antisymmetric.

(* transitivity of <=; that of < follows from it with C20_antisymmetric and C20_zero_iff_identical *)
Theorem C20_transitive : forall (a b c : str) (ci : bool),
  natural_cmp a b ci <= 0 -> natural_cmp b c ci <= 0 -> natural_cmp a c ci <= 0.
Proof. exact natural_cmp_trans. Qed.
Print Assumptions C20_transitive.

Theorem C20_zero_iff_identical : forall (a b : str) (ci : bool), natural_cmp a b ci = 0 <-> a = b.
Proof. exact natural_cmp_zero_iff. Qed.
Print Assumptions C20_zero_iff_identical.

Theorem C20_result_range : forall (a b : str) (ci : bool),
  natural_cmp a b ci = -1 \/ natural_cmp a b ci = 0 \/ natural_cmp a b ci = 1.
Proof. exact natural_cmp_range. Qed.
Print Assumptions C20_result_range.

Theorem C20_less_agrees : forall (a b : str) (ci : bool), natural_less a b ci = true <-> natural_cmp a b ci < 0.
Proof. exact natural_less_spec. Qed.
Print Assumptions C20_less_agrees.

(* sorting: the sorted permutation of any input is unique, so any correct sort returns exactly sort_asc / sort_desc *)
Theorem C20_sort_ascending_deterministic : forall l : list str,
  Permutation l (sort_asc l) /\ sorted_by (fun a b => natural_cmp a b true) (sort_asc l) = true /\
  forall out, Permutation l out -> sorted_by (fun a b => natural_cmp a b true) out = true -> out = sort_asc l.
Proof. exact sort_asc_spec. Qed.
Print Assumptions C20_sort_ascending_deterministic.

Theorem C20_sort_descending_deterministic : forall l : list str,
  Permutation l (sort_desc l) /\ sorted_by (fun a b => natural_cmp b a true) (sort_desc l) = true /\
  forall out, Permutation l out -> sorted_by (fun a b => natural_cmp b a true) out = true -> out = sort_desc l.
Proof. exact sort_desc_spec. Qed.
Print Assumptions C20_sort_descending_deterministic.

(* non-vacuity / regression examples: "a2" < "a12", "2" < "02", "A" vs "a" *)
Example C20_ex_numeric : natural_cmp [97;50] [97;49;50] false = -1. Proof. reflexivity. Qed.
Example C20_ex_zeros : natural_cmp [50] [48;50] true = -1. Proof. reflexivity. Qed.
Example C20_ex_case : natural_cmp [65] [97] true = -1 /\ natural_cmp [65] [97] false = -1 /\ natural_cmp [97;49] [65;50] true = -1.
Proof. repeat split. Qed.
