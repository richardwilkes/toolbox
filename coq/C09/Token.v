(* C09 — token-level model of the two-stack reduction (with the repaired unary rule) and its correctness proof:
   for every well-formed expression the operator/operand stacks end up holding exactly the conventional tree. *)
From Coq Require Import List Bool Arith Lia.
Import ListNotations.

Record op := { oid : nat; prec : nat; una : bool }.
Inductive tok := TOperand (s : nat) | TOp (o : op) | TLP | TRP.
Inductive tree := Leaf (u : option op) (s : nat) | Node (o : op) (l r : option tree) | UnaryP (u : op) (t : tree).
Inductive oentry := OLP (u : option op) | OBin (o : op).
Record st := { vs : list tree; os : list oentry; have : bool; pend : option op }.

(* processTree *)
Definition reduce1 (o : op) (v : list tree) : list tree :=
  match v with
  | r :: l :: rest => Node o (Some l) (Some r) :: rest
  | [r] => [Node o None (Some r)]
  | [] => [Node o None None]
  end.
(* reduce while top is a binary operator of precedence >= p *)
Fixpoint reduce_ge (p : nat) (v : list tree) (o : list oentry) : list tree * list oentry :=
  match o with
  | OBin b :: o' => if p <=? prec b then reduce_ge p (reduce1 b v) o' else (v, o)
  | _ => (v, o)
  end.
(* reduce until an open parenthesis (or the bottom) *)
Fixpoint reduce_lp (v : list tree) (o : list oentry) : list tree * list oentry :=
  match o with
  | OBin b :: o' => reduce_lp (reduce1 b v) o'
  | _ => (v, o)
  end.

Definition step (s : st) (t : tok) : option st :=
  match t with
  | TOperand x => Some {| vs := Leaf (pend s) x :: vs s; os := os s; have := true; pend := None |}
  | TOp o =>
    if una o && negb (have s) then
      match pend s with Some _ => None | None => Some {| vs := vs s; os := os s; have := false; pend := Some o |} end
    else let '(v, o') := reduce_ge (prec o) (vs s) (os s) in
         Some {| vs := v; os := OBin o :: o'; have := false; pend := None |}
  | TLP => Some {| vs := vs s; os := OLP (pend s) :: os s; have := false; pend := None |}     (* function calls not modelled here *)
  | TRP =>
    let '(v, o') := reduce_lp (vs s) (os s) in
    match o' with
    | OLP u :: o'' =>
      match u with
      | None => Some {| vs := v; os := o''; have := have s; pend := None |}
      | Some uo => match v with x :: xs => Some {| vs := UnaryP uo x :: xs; os := o''; have := have s; pend := None |} | [] => None end
      end
    | _ => None
    end
  end.
Fixpoint run (s : st) (ts : list tok) : option st :=
  match ts with [] => Some s | t :: r => match step s t with Some s' => run s' r | None => None end end.

(* specification: well-formed expressions *)
Inductive expr := Lit (s : nat) | ULit (o : op) (s : nat) | Par (e : expr) | UPar (o : op) (e : expr) | Bin (o : op) (l r : expr).
Fixpoint tokens (e : expr) : list tok :=
  match e with
  | Lit s => [TOperand s] | ULit o s => [TOp o; TOperand s]
  | Par e => TLP :: tokens e ++ [TRP] | UPar o e => TOp o :: TLP :: tokens e ++ [TRP]
  | Bin o l r => tokens l ++ TOp o :: tokens r
  end.
Fixpoint tree_of (e : expr) : tree :=
  match e with
  | Lit s => Leaf None s | ULit o s => Leaf (Some o) s
  | Par e => tree_of e | UPar o e => UnaryP o (tree_of e)
  | Bin o l r => Node o (Some (tree_of l)) (Some (tree_of r))
  end.
(* only a bound above every binary precedence (the library's end at 70): wf's prec o < INF excludes nothing in use *)
Definition INF := 1000.
Definition minprec (e : expr) : nat := match e with Bin o _ _ => prec o | _ => INF end.
Fixpoint wf (e : expr) : Prop :=
  match e with
  | Lit _ => True | ULit o _ => una o = true
  | Par e => wf e | UPar o e => una o = true /\ wf e
  | Bin o l r => wf l /\ wf r /\ prec o <= minprec l /\ prec o < minprec r /\ prec o < INF
  end.

Definition all_bin_ge (p : nat) (o : list oentry) : Prop := Forall (fun e => match e with OBin b => p <= prec b | OLP _ => False end) o.

Lemma reduce_ge_app p o' : forall v o, all_bin_ge p o' -> reduce_ge p v (o' ++ o) = reduce_ge p (fst (reduce_lp v o')) o.
Proof.
  induction o' as [|e o' IH]; intros v o H; cbn; auto.
  inversion H as [|? ? He Hr]; subst. destruct e as [|b]; [contradiction|].
  apply Nat.leb_le in He. rewrite He. apply IH. exact Hr.
Qed.
Lemma reduce_lp_app p o' : forall v o, all_bin_ge p o' -> reduce_lp v (o' ++ o) = reduce_lp (fst (reduce_lp v o')) o.
Proof.
  induction o' as [|e o' IH]; intros v o H; cbn; auto.
  inversion H as [|? ? He Hr]; subst. destruct e as [|b]; [contradiction|]. apply IH. exact Hr.
Qed.
Lemma reduce_lp_allbin p o' v : all_bin_ge p o' -> snd (reduce_lp v o') = [].
Proof. intro H. rewrite <- (app_nil_r o'), (reduce_lp_app _ _ _ _ H). reflexivity. Qed.
Lemma all_bin_weaken p q o : q <= p -> all_bin_ge p o -> all_bin_ge q o.
Proof. intros Hq H. induction H; constructor; auto. destruct x; auto. lia. Qed.

Definition stable (p : nat) (o : list oentry) : Prop := match o with OBin c :: _ => prec c < p | _ => True end.
Lemma reduce_ge_stable p v o : stable p o -> reduce_ge p v o = (v, o).
Proof. destruct o as [|[|c] o]; cbn; auto. intro H. apply Nat.leb_gt in H. now rewrite H. Qed.

(* main lemma: after the tokens of e, the pending operators (all binary, precedence >= minprec e) flush to tree_of e *)
Lemma run_tokens : forall e v o k, wf e -> stable (minprec e) o ->
  exists v' o', run {| vs := v; os := o; have := false; pend := None |} (tokens e ++ k)
                = run {| vs := v'; os := o' ++ o; have := true; pend := None |} k
             /\ all_bin_ge (minprec e) o' /\ fst (reduce_lp v' o') = tree_of e :: v.
Proof.
  induction e as [s | u s | e IH | u e IH | b l IHl r IHr]; intros v o k W S; cbn [tokens wf] in *.
  - exists (Leaf None s :: v), []. cbn. repeat split; constructor.
  - exists (Leaf (Some u) s :: v), []. cbn. rewrite W. cbn. repeat split; constructor.
  - destruct (IH v (OLP None :: o) (TRP :: k) W I) as (v' & o' & R & A & F).
    exists (tree_of e :: v), []. cbn [app run step vs os have pend]. rewrite <- app_assoc. cbn [app]. rewrite R.
    cbn [run step vs os have pend]. rewrite (reduce_lp_app _ _ _ _ A). rewrite F. cbn. repeat split; constructor.
  - destruct W as [Wu W]. destruct (IH v (OLP (Some u) :: o) (TRP :: k) W I) as (v' & o' & R & A & F).
    exists (UnaryP u (tree_of e) :: v), []. cbn [app run step vs os have pend]. rewrite Wu. cbn [andb negb run step vs os have pend].
    rewrite <- app_assoc. cbn [app]. rewrite R.
    cbn [run step vs os have pend]. rewrite (reduce_lp_app _ _ _ _ A). rewrite F. cbn. repeat split; constructor.
  - destruct W as (Wl & Wr & Pl & Pr & Pinf). cbn [minprec] in S.
    assert (Sl : stable (minprec l) o) by (destruct o as [|[|c] o]; cbn in *; auto; lia).
    destruct (IHl v o (TOp b :: tokens r ++ k) Wl Sl) as (vl & ol & Rl & Al & Fl).
    rewrite <- app_assoc. cbn [app]. rewrite Rl. cbn [run step vs os have pend].
    rewrite andb_false_r.
    rewrite (reduce_ge_app _ _ _ _ (all_bin_weaken _ _ _ Pl Al)). rewrite Fl.
    rewrite (reduce_ge_stable _ _ _ S).
    destruct (IHr (tree_of l :: v) (OBin b :: o) k Wr Pr) as (vr & or & Rr & Ar & Fr).
    rewrite Rr. exists vr, (or ++ [OBin b]). rewrite <- app_assoc. cbn [app]. split; [reflexivity|]. split.
    + cbn [minprec]. apply Forall_app. split; [eapply all_bin_weaken; [|exact Ar]; lia|]. constructor; [cbn; lia|constructor].
    + rewrite (reduce_lp_app _ _ _ _ Ar). rewrite Fr. reflexivity.
Qed.

(* end of input: everything left is reduced *)
Definition finish (s : st) : list tree := fst (reduce_lp (vs s) (os s)).
Theorem parse_correct e : wf e ->
  exists s, run {| vs := []; os := []; have := false; pend := None |} (tokens e) = Some s /\ finish s = [tree_of e] /\ snd (reduce_lp (vs s) (os s)) = [].
Proof.
  intro W. destruct (run_tokens e [] [] [] W I) as (v' & o' & R & A & F).
  rewrite app_nil_r in R. cbn [run] in R. rewrite app_nil_r in R.
  eexists. split; [exact R|]. unfold finish; cbn [vs os]. split; [exact F|]. eapply reduce_lp_allbin; eauto.
Qed.
