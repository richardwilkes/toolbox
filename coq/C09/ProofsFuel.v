(* C09 — one pass over the parser, [within False (~ Syms)]: no panic for any operator table, because the operand trees stay
   well-formed (st_ok); no fuel exhaustion when no operator symbol is empty (Syms), because the position strictly increases
   within the input. What depends on Syms is stated behind [Syms ->]. *)
From Coq Require Import ZArith NArith List Bool Lia.
From Verif Require Import common.ListFacts C09.Model C09.Proofs.
Import ListNotations.

Lemma is_prefix_len p : forall s, is_prefix p s = true -> (length p <= length s)%nat.
Proof. induction p as [|x p IH]; intros s H; [cbn; lia|]. destruct s as [|y s]; [discriminate|]. cbn in *. apply andb_true_iff in H. destruct H as [_ H]. apply IH in H. lia. Qed.
Lemma first_match_in ops expr start rest o : first_match ops expr start rest = Some o -> In o ops /\ is_prefix (sym o) rest = true.
Proof.
  induction ops as [|x ops IH]; [discriminate|]. cbn [first_match]. destruct (op_match expr start rest x) eqn:E.
  - intros [= <-]. split; [left; reflexivity|]. unfold op_match in E. apply andb_true_iff in E. tauto.
  - intro H. destruct (IH H). split; [right; assumption|assumption].
Qed.
Lemma next_op_spec ops expr : forall rest start i o, skipn start expr = rest -> next_op ops expr start rest = Some (i, o) ->
  (start <= i < length expr)%nat /\ In o ops /\ is_prefix (sym o) (skipn i expr) = true.
Proof.
  induction rest as [|c rest IH]; intros start i o E H; [discriminate|]. cbn [next_op] in H. destruct (first_match ops expr start (c :: rest)) as [o1|] eqn:F.
  - injection H as <- <-. destruct (first_match_in _ _ _ _ _ F) as [A B]. rewrite E. split; [|auto].
    apply (f_equal (@length _)) in E. rewrite skipn_length in E. cbn [length] in E. lia.
  - destruct (IH (S start) i o (skipn_step _ _ _ _ E) H) as (A & B & C). split; [lia|auto].
Qed.
Lemma nextOperator_in ops expr start i o : nextOperator ops expr start = Some (i, o) ->
  (start <= i < length expr)%nat /\ In o ops /\ (i + length (sym o) <= length expr)%nat.
Proof.
  intro H. unfold nextOperator in H. destruct (next_op_spec ops expr _ start i o eq_refl H) as (A & B & C). split; [exact A|]. split; [exact B|].
  apply is_prefix_len in C. rewrite skipn_length in C. lia.
Qed.

Lemma nextOperator_beyond ops expr start : (length expr <= start)%nat -> nextOperator ops expr start = None.
Proof. intro H. unfold nextOperator. rewrite skipn_all2 by exact H. reflexivity. Qed.

Section P.
Variable ops : list oper.
Variable funs : list bytes.

Lemma match_paren_S f expr next parens : match_paren ops (S f) expr next parens =
  match nextOperator ops expr (S next) with
  | None => None
  | Some (j, o) =>
    if negb (is_sym o 40) && is_sym o 41 && (parens =? 1)%nat then Some j
    else match_paren ops f expr j (if is_sym o 40 then S parens else if is_sym o 41 then (parens - 1)%nat else parens)
  end.
Proof.
  cbn [match_paren]. destruct (nextOperator ops expr (S next)) as [[j o]|]; [|reflexivity].
  destruct (is_sym o 40); [reflexivity|]. destruct (is_sym o 41); [|reflexivity]. destruct parens as [|[|p]]; reflexivity.
Qed.
Lemma match_paren_spec : forall fuel expr next parens i, match_paren ops fuel expr next parens = Some i -> (next < i < length expr)%nat.
Proof.
  induction fuel as [|f IH]; intros expr next parens i H; [discriminate|]. rewrite match_paren_S in H.
  destruct (nextOperator ops expr (S next)) as [[j o]|] eqn:N; [|discriminate]. destruct (nextOperator_in _ _ _ _ _ N) as (A & _).
  destruct (_ && _); [injection H as <-|apply IH in H]; lia.
Qed.
Lemma match_paren_stable : forall fuel expr next parens k, (length expr - next <= fuel)%nat ->
  match_paren ops (fuel + k) expr next parens = match_paren ops fuel expr next parens.
Proof.
  induction fuel as [|f IH]; intros expr next parens k H.
  - destruct k; [reflexivity|]. cbn [Nat.add]. rewrite match_paren_S, nextOperator_beyond by lia. reflexivity.
  - cbn [Nat.add]. rewrite !match_paren_S. destruct (nextOperator ops expr (S next)) as [[j o]|] eqn:N; [|reflexivity].
    destruct (nextOperator_in _ _ _ _ _ N) as (A & _). destruct (_ && _); [reflexivity|]. apply IH. lia.
Qed.

Lemma processFunction_inv expr i s : st_ok s ->
  within False False (fun p => st_ok (snd p) /\ optrs (snd p) = optrs s /\ (i < fst p < length expr)%nat)
         (processFunction ops funs expr i s).
Proof.
  intro H. unfold processFunction. destruct (match_paren ops (S (length expr)) expr i 1) as [next|] eqn:M; [|exact I].
  destruct (opnds s) as [|[u name| | ] rest] eqn:E; try exact I. destruct (existsb (beq name) funs); [|exact I].
  split; [apply Forall_cons; [exact I|apply (st_ok_top _ _ _ E H)]|]. split; [reflexivity|exact (match_paren_spec _ _ _ _ _ M)].
Qed.

Lemma opCont_inv u fuel idx o s : st_ok s -> (length (optrs s) < fuel)%nat ->
  within False False (fun p => st_ok (snd p) /\ fst (fst p) = (idx + length (sym o))%nat) (opCont u fuel idx o s).
Proof.
  intros H Hf. unfold opCont. destruct (is_sym o 40); [split; [exact H|reflexivity]|]. destruct (is_sym o 41).
  - rewrite reduce_to_paren_while. apply within_bind with (1 := reduce_while_inv _ _ _ H Hf). intros s1 H1.
    destruct (optrs s1) as [|top os]; [exact I|]. destruct (is_sym (s_op top) 40); [|exact I].
    destruct (s_un top) as [uo|]; [|split; [exact H1|reflexivity]].
    destruct (opnds s1) as [|x xs] eqn:E; [exact I|]. destruct (st_ok_top _ _ _ E H1) as [Hx Hxs].
    split; [apply Forall_cons; [cbn; auto|exact Hxs]|reflexivity].
  - rewrite reduce_prec_while. apply within_bind with (1 := reduce_while_inv _ _ _ H Hf). intros s1 H1. split; [exact H1|reflexivity].
Qed.

(* the position moves past the operator (past more, after a function's arguments): forward, when its symbol is not empty *)
Lemma processOperator_inv expr i o have u s : st_ok s -> (i + length (sym o) <= length expr)%nat ->
  within False False (fun p => st_ok (snd p) /\ (i + length (sym o) <= fst (fst p) \/ i < fst (fst p))%nat /\ (fst (fst p) <= length expr)%nat)
         (processOperator ops funs expr i o have u s).
Proof.
  intros H Hlen. unfold processOperator. cbv zeta.
  assert (Cont : forall idx o2 s1, st_ok s1 -> optrs s1 = optrs s -> (idx + length (sym o2) <= length expr)%nat -> (idx = i /\ o2 = o \/ i < idx)%nat ->
            within False False (fun p => st_ok (snd p) /\ (i + length (sym o) <= fst (fst p) \/ i < fst (fst p))%nat /\ (fst (fst p) <= length expr)%nat)
                   (opCont u (S (length (optrs s))) idx o2 s1)).
  { intros idx o2 s1 H1 Hoptrs Hlen2 Hidx.
    assert (Hfuel : (length (optrs s1) < S (length (optrs s)))%nat) by (rewrite Hoptrs; apply Nat.lt_succ_diag_r).
    apply within_weaken with (4 := opCont_inv u _ idx o2 s1 H1 Hfuel); [trivial..|]. intros p [Hp ->]. split; [exact Hp|].
    destruct Hidx as [[-> ->]|Hidx]; lia. }
  destruct (have && is_sym o 40); [|apply Cont; auto].
  apply within_bind with (1 := processFunction_inv expr i s H). intros [idx s1] (H1 & Hoptrs & Hidx). cbn [fst snd] in H1, Hoptrs, Hidx.
  destruct (nextOperator ops expr (idx + 1)) as [[tmp o2]|] eqn:N.
  - destruct (nextOperator_in _ _ _ _ _ N) as (Htmp & _ & Hlen2). apply Cont; [exact H1|exact Hoptrs|exact Hlen2|lia].
  - destruct (find_close ops); [|exact I]. split; [exact H1|]. cbn [fst]. lia.
Qed.

(* the one place where the two ideas meet: when no symbol is empty (Syms), every round moves forward, so the fuel is enough *)
Let Syms : Prop := forall o, In o ops -> sym o <> [].
Lemma parse_loop_inv : forall fuel expr i u have s, st_ok s -> (Syms -> (length expr - i < fuel)%nat) ->
  within False (~ Syms) st_ok (parse_loop ops funs fuel expr i u have s).
Proof.
  induction fuel as [|f IH]; intros expr i u have s H Hf; [intro Sy; specialize (Hf Sy); lia|]. cbn [parse_loop].
  destruct (Nat.leb_spec (length expr) i) as [|Hlt]; [exact H|].
  assert (Step : forall i' u' h' s', st_ok s' -> (Syms -> i < i')%nat -> (i' <= length expr)%nat ->
            within False (~ Syms) st_ok (parse_loop ops funs f expr i' u' h' s')).
  { intros i' u' h' s' H' Hi Hle. apply IH; [exact H'|]. intro Sy. specialize (Hf Sy). specialize (Hi Sy). lia. }
  clear IH Hf. destruct (is_ws (nthb expr i)); [apply Step; [exact H|lia..]|].
  assert (Hpush : forall text, st_ok {| opnds := OpText u text :: opnds s; optrs := optrs s |}).
  { intro text. constructor; [exact I|exact H]. }
  assert (Hsym : forall o, In o ops -> Syms -> (1 <= length (sym o))%nat).
  { intros o B Sy. pose proof (Sy o B) as N. destruct (sym o); [congruence|]. cbn [length]. lia. }
  assert (Hop : forall j o have' u' s', st_ok s' -> (i <= j)%nat -> In o ops -> (j + length (sym o) <= length expr)%nat ->
            within False (~ Syms) st_ok (match processOperator ops funs expr j o have' u' s' with
                                         | Ok (i2, lastop, s2) => parse_loop ops funs f expr i2 None (if is_sym lastop 41 then have' else false) s2
                                         | Err => Err | Panic => Panic | OutOfFuel => OutOfFuel end)).
  { intros j o have' u' s' H' A B C. eapply within_bind.
    - apply within_weaken with (4 := processOperator_inv expr j o have' u' s' H' C); [intros []..|]. intros p Hp. exact Hp.
    - intros [[i2 lastop] s2] (H2 & Hi2 & Hle). cbn [fst snd] in H2, Hi2, Hle. apply Step; [exact H2| |exact Hle]. intro Sy. pose proof (Hsym o B Sy). lia. }
  destruct (nextOperator ops expr i) as [[oi o]|] eqn:En.
  - destruct (nextOperator_in _ _ _ _ _ En) as (A & B & C). destruct (Nat.ltb_spec i oi).
    + (* an operand was pushed: the position is oi and haveOperand is set *)
      destruct (trim (slice expr i oi)) as [|c t]; [exact I|]. rewrite Nat.eqb_refl, andb_false_r. apply Hop; [apply Hpush|lia|assumption..].
    + assert (oi = i) by lia. subst oi. rewrite Nat.eqb_refl. destruct (una o && negb have); [|apply Hop; auto].
      destruct u; [exact I|]. apply Step; [exact H| |exact C]. intro Sy. pose proof (Hsym o B Sy). lia.
  - destruct (trim (skipn i expr)) as [|c t]; [exact I|]. apply Step; [apply Hpush|lia..].
Qed.

Lemma evaluate_inv expr : within False (~ Syms) (fun _ => True) (evaluate ops funs expr).
Proof.
  unfold evaluate. apply within_bind with (P := st_ok).
  { apply parse_loop_inv; [apply Forall_nil|intros _; lia]. }
  intros s H. rewrite finish_while. apply within_bind with (P := st_ok).
  { apply within_weaken with (4 := reduce_while_inv _ _ s H (Nat.lt_succ_diag_r _)); [intros []..|trivial]. }
  intros s' H'. destruct (opnds s') as [|x xs] eqn:E; [exact I|]. destruct (st_ok_top _ _ _ E H') as [Hx _].
  apply within_weaken with (4 := evalO_cases x); [intro N; exact (N Hx)|intros []|trivial].
Qed.
End P.

Theorem evaluate_never_panics ops funs expr : evaluate ops funs expr <> Panic.
Proof. exact (within_not_panic _ _ _ _ (evaluate_inv ops funs expr) (fun f => f)). Qed.
Theorem evaluate_never_out_of_fuel ops funs expr : (forall o, In o ops -> sym o <> []) -> evaluate ops funs expr <> OutOfFuel.
Proof. intro syms. exact (within_not_fuel _ _ _ _ (evaluate_inv ops funs expr) (fun N => N syms)). Qed.
(* a fixed table: by evaluation *)
Lemma std_ops_syms : forall o, In o std_ops -> sym o <> [].
Proof.
  intros o H E. assert (F : forallb (fun o => match sym o with [] => false | _ => true end) std_ops = true) by reflexivity.
  rewrite forallb_forall in F. specialize (F o H). rewrite E in F. discriminate.
Qed.
