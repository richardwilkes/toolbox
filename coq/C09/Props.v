(* C09 — property theorems, each followed by Print Assumptions, and three worked examples. *)
From Coq Require Import ZArith NArith List Bool Arith Lia.
From Verif Require Import C09.Model C09.Proofs C09.ProofsFuel C09.Token.
Import ListNotations.

(* for every input string whatsoever and every operator/function table, the parser and the evaluation of the tree it builds
   never perform an unchecked pop or apply a missing operator: no panic *)
Theorem C09_no_input_panics : forall (ops : list oper) (funs : list bytes) (expr : bytes), evaluate ops funs expr <> Panic.
Proof. exact evaluate_never_panics. Qed.
Print Assumptions C09_no_input_panics.

(* bounded time: for every input string whatsoever and every operator table whose symbols are not empty (the standard table is
   one), no loop of the model runs out of its fuel - the scan position strictly increases and stays within the input, every reduction
   pops an operator, the parenthesis matcher's fuel is enough (more fuel gives the same answer) *)
Theorem C09_no_input_exhausts_the_fuel : forall (ops : list oper) (funs : list bytes) (expr : bytes),
  (forall o, In o ops -> sym o <> []) -> evaluate ops funs expr <> OutOfFuel.
Proof. exact evaluate_never_out_of_fuel. Qed.
Print Assumptions C09_no_input_exhausts_the_fuel.
Theorem C09_standard_table_total : forall funs expr, evaluate std_ops funs expr <> OutOfFuel /\ evaluate std_ops funs expr <> Panic.
Proof. intros funs expr. split; [apply evaluate_never_out_of_fuel; exact std_ops_syms|apply evaluate_never_panics]. Qed.
Print Assumptions C09_standard_table_total.
Theorem C09_paren_matcher_fuel_suffices : forall ops, (forall o, In o ops -> sym o <> []) -> forall expr next parens k,
  match_paren ops (S (length expr) + k) expr next parens = match_paren ops (S (length expr)) expr next parens.
Proof. intros ops _ expr next parens k. apply match_paren_stable. lia. Qed.
Print Assumptions C09_paren_matcher_fuel_suffices.

(* token level: for every well-formed expression (binary operators with the conventional precedences and left associativity, a
   unary sign or negation before a literal or before a parenthesised expression, redundant parentheses), the two-stack reduction
   ends with exactly the conventional tree: a unary operator applies to its operand only *)
Theorem C09_precedence_associativity_and_unary_scope : forall e : expr, wf e ->
  exists s, Token.run {| vs := []; os := []; have := false; pend := None |} (tokens e) = Some s /\
            Token.finish s = [tree_of e] /\ snd (reduce_lp (vs s) (os s)) = [].
Proof. exact parse_correct. Qed.
Print Assumptions C09_precedence_associativity_and_unary_scope.

(* regression examples on the byte-level model: 2*-3, 3 - -2, -() and the precedence chain 1+2*3^4-5 *)
Definition str (l : list N) : bytes := l.
Open Scope N_scope.
Example C09_ex_unary_after_operator :
  evaluate std_ops [] (str [50; 42; 45; 51]) = Ok (str [40; 50; 42; 91; 45; 51; 93; 41]) /\      (* 2*-3 = (2*[-3]) *)
  evaluate std_ops [] (str [51; 32; 45; 32; 45; 50]) = Ok (str [40; 51; 45; 91; 45; 50; 93; 41]). (* 3 - -2 = (3-[-2]) *)
Proof. split; vm_compute; reflexivity. Qed.
Example C09_ex_empty_parens : evaluate std_ops [] (str [45; 40; 41]) = Err.
Proof. vm_compute. reflexivity. Qed.
Example C09_ex_precedence :
  evaluate std_ops [] (str [49; 43; 50; 42; 51; 94; 52; 45; 53]) = Ok (str [40; 40; 49; 43; 40; 50; 42; 40; 51; 94; 52; 41; 41; 41; 45; 53; 41]).
Proof. vm_compute. reflexivity. Qed.
