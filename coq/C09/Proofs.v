(* C09 — what the single pass over the parser in ProofsFuel.v rests on: [within], the three reduction loops as one
   (reduce_while), well-formed operand trees (tree_ok) and where evaluation panics (evalO_cases). *)
From Coq Require Import ZArith NArith List Bool Lia.
From Verif Require Import C09.Model.
Import ListNotations.

(* [within False True] excludes Panic, [within True False] excludes OutOfFuel *)
Definition within {A} (panic fuel : Prop) (P : A -> Prop) (r : res A) : Prop :=
  match r with Ok a => P a | Err => True | Panic => panic | OutOfFuel => fuel end.
Lemma within_bind {A B} panic fuel (P : A -> Prop) (Q : B -> Prop) (r : res A) (k : A -> res B) :
  within panic fuel P r -> (forall a, P a -> within panic fuel Q (k a)) ->
  within panic fuel Q (match r with Ok a => k a | Err => Err | Panic => Panic | OutOfFuel => OutOfFuel end).
Proof. destruct r; cbn; auto. Qed.
Lemma within_weaken {A} (panic panic' fuel fuel' : Prop) (P Q : A -> Prop) r :
  (panic -> panic') -> (fuel -> fuel') -> (forall a, P a -> Q a) -> within panic fuel P r -> within panic' fuel' Q r.
Proof. destruct r; cbn; auto. Qed.
Lemma within_not_panic {A} panic fuel (P : A -> Prop) r : within panic fuel P r -> ~ panic -> r <> Panic.
Proof. intros W N E. rewrite E in W. exact (N W). Qed.
Lemma within_not_fuel {A} panic fuel (P : A -> Prop) r : within panic fuel P r -> ~ fuel -> r <> OutOfFuel.
Proof. intros W N E. rewrite E in W. exact (N W). Qed.

Fixpoint reduce_while (c : sop -> bool) (fuel : nat) (s : st) : res st :=
  match fuel with O => OutOfFuel | S f =>
    match optrs s with
    | [] => Ok s
    | o :: _ => if c o then match processTree s with Ok s' => reduce_while c f s' | e => e end else Ok s
    end end.
Lemma reduce_to_paren_while fuel : forall s, reduce_to_paren fuel s = reduce_while (fun o => negb (is_sym (s_op o) 40)) fuel s.
Proof.
  induction fuel as [|f IH]; intro s; cbn [reduce_to_paren reduce_while]; [reflexivity|]. destruct (optrs s); [reflexivity|].
  destruct (is_sym _ 40); [reflexivity|]. cbn [negb]. destruct (processTree s); auto.
Qed.
Lemma reduce_prec_while p fuel : forall s, reduce_prec fuel p s = reduce_while (fun o => (p <=? prec (s_op o))%Z) fuel s.
Proof.
  induction fuel as [|f IH]; intro s; cbn [reduce_prec reduce_while]; [reflexivity|]. destruct (optrs s); [reflexivity|].
  destruct (_ <=? _)%Z; [|reflexivity]. destruct (processTree s); auto.
Qed.
Lemma finish_while fuel : forall s, finish fuel s = reduce_while (fun _ => true) fuel s.
Proof.
  induction fuel as [|f IH]; intro s; cbn [finish reduce_while]; [reflexivity|]. destruct (optrs s); [reflexivity|].
  destruct (processTree s); auto.
Qed.

(* only the unary wrapper of a parenthesis has no binary operator, and it has no right operand *)
Fixpoint tree_ok (x : operand) : Prop :=
  match x with
  | OpText _ _ | OpFun _ _ _ => True
  | OpTree l r o u => (match l with Some a => tree_ok a | None => True end) /\ (match r with Some a => tree_ok a | None => True end) /\
                      (o = None -> r = None)
  end.
Definition st_ok (s : st) : Prop := Forall tree_ok (opnds s).
Lemma st_ok_top s x xs : opnds s = x :: xs -> st_ok s -> tree_ok x /\ Forall tree_ok xs.
Proof. unfold st_ok. intros ->. apply Forall_cons_iff. Qed.

Lemma processTree_spec s o os : optrs s = o :: os -> exists s', processTree s = Ok s' /\ optrs s' = os /\ (st_ok s -> st_ok s').
Proof.
  unfold processTree, st_ok. intros ->.
  destruct (opnds s) as [|x [|y ys]]; eexists; (split; [reflexivity|]); (split; [reflexivity|]); cbn [opnds]; intro H.
  - repeat constructor.
  - inversion H; subst. repeat constructor; [assumption|discriminate].
  - inversion H as [|? ? Hx Hr]; subst. inversion Hr; subst. constructor; [|assumption]. repeat split; [assumption..|discriminate].
Qed.

(* a reduction loop keeps the trees well-formed and, since every round pops an operator, ends within its fuel *)
Lemma reduce_while_inv c : forall fuel s, st_ok s -> (length (optrs s) < fuel)%nat -> within False False st_ok (reduce_while c fuel s).
Proof.
  induction fuel as [|f IH]; intros s H Hf; [lia|]. cbn [reduce_while].
  destruct (optrs s) as [|o os] eqn:E; [exact H|]. destruct (c o); [|exact H].
  destruct (processTree_spec s o os E) as (s' & -> & E' & K). apply IH; [exact (K H)|]. rewrite E'. cbn [length] in Hf. lia.
Qed.

Lemma evalO_cases : forall x, within (~ tree_ok x) False (fun _ => True) (evalO x).
Proof.
  fix IH 1. unfold within in *. intros [u t | u name args | l r o u]; cbn [evalO tree_ok]; try exact I.
  (* per operand: Ok goes on; its Err, Panic and OutOfFuel pass through *)
  destruct l as [a|]; [specialize (IH a) as Ha; destruct (evalO a) as [va| | |]; [|exact I|tauto|exact Ha]|];
    (destruct r as [b|]; [specialize (IH b) as Hb; destruct (evalO b) as [vb| | |]; [|exact I|tauto|exact Hb]|]).
  2-3: destruct u as [uo|]; [destruct (una uo)|]; destruct o as [oo|]; try destruct (una oo); exact I.
  2: exact I.
  (* both operands: Panic exactly when the binary operator is missing, which tree_ok excludes *)
  destruct o as [oo|]; [destruct (bin oo); exact I|]. intros (_ & _ & Ho). discriminate (Ho eq_refl).
Qed.

