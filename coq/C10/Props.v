(* C10 — property theorems only. Each is closed by [exact] of a lemma from Proofs.v and followed by Print Assumptions.
   Vocabulary (Spec.v): an intent is one assignment in one of the seven spellings; spell/assigns give its arguments and the
   assignments it denotes; a tail is nothing, "--" and anything, or a non-option-like first positional and anything; segments
   are runs of intents written inline or placed in a response file; malformed lists the ill-formed continuations. *)
From Coq Require Import ZArith List Bool.
From Verif Require Import C10.Model C10.Spec C10.Proofs.
Import ListNotations.
Open Scope Z_scope.

(* Every vector of valid spellings, in any order, split in any way into distinct response files, followed by any positional
   tail: Parse performs exactly the denoted assignments in order (so the last one wins and slices append, see the driver) and
   returns exactly the positional arguments, whatever they look like. Option 0 is the built-in help flag. *)
Theorem C10_valid_vector_assigns_exactly : forall opts m segs t, build opts 0 [] = Some m ->
  Forall (wf_intent opts) (intents_of segs) -> wf_tail t -> NoDup (file_names segs) ->
  Forall (fun p => fst p <> 0%nat) (assigns_all (intents_of segs)) ->
  parse opts (files_of opts segs) (render opts segs ++ tail_args t) = Done (assigns_all (intents_of segs)) (tail_rest t).
Proof. exact parse_valid. Qed.
Print Assumptions C10_valid_vector_assigns_exactly.

(* Splitting across response files changes nothing *)
Theorem C10_response_files_transparent : forall opts m segs t, build opts 0 [] = Some m ->
  Forall (wf_intent opts) (intents_of segs) -> wf_tail t -> NoDup (file_names segs) ->
  Forall (fun p => fst p <> 0%nat) (assigns_all (intents_of segs)) ->
  parse opts (files_of opts segs) (render opts segs ++ tail_args t) = parse opts [] (spell_all opts (intents_of segs) ++ tail_args t).
Proof. intros opts m segs t Hm W Wt Hnd _. apply (parse_files_transparent_any opts m); assumption. Qed.
Print Assumptions C10_response_files_transparent.

(* A malformed continuation after any valid prefix takes the fatal-exit path: unknown long or short option (alone, with a value,
   after grouped flags), a value given to a boolean flag, a value the option's type rejects in each of the five spellings, a
   missing value at the end of the vector *)
Theorem C10_malformed_vector_is_fatal : forall opts files m its sfx, build opts 0 [] = Some m ->
  Forall (wf_intent opts) its -> malformed opts m sfx -> parse opts files (spell_all opts its ++ sfx) = Fatal.
Proof. exact parse_malformed. Qed.
Print Assumptions C10_malformed_vector_is_fatal.

(* A response file named twice (so also one that names itself) or missing is fatal wherever an option is looked for *)
Theorem C10_response_file_reuse_is_fatal : forall opts files m F f more seen sets rest, mem f seen = true ->
  scan opts files F m ((64 :: f) :: more) Look seen sets rest = Fatal.
Proof. exact scan_file_again. Qed.
Print Assumptions C10_response_file_reuse_is_fatal.
Theorem C10_response_file_missing_is_fatal : forall opts files m F f more seen sets rest, find (fun p => seq_eq (fst p) f) files = None ->
  scan opts files F m ((64 :: f) :: more) Look seen sets rest = Fatal.
Proof. exact scan_file_missing. Qed.
Print Assumptions C10_response_file_missing_is_fatal.

(* Asking for help anywhere in an otherwise valid vector exits *)
Theorem C10_help_exits : forall opts m segs t, build opts 0 [] = Some m ->
  Forall (wf_intent opts) (intents_of segs) -> wf_tail t -> NoDup (file_names segs) ->
  Exists (fun p => fst p = 0%nat) (assigns_all (intents_of segs)) ->
  parse opts (files_of opts segs) (render opts segs ++ tail_args t) = Fatal.
Proof. exact parse_help_requested. Qed.
Print Assumptions C10_help_exits.

(* Ill-formed tables are rejected before any argument is read *)
Theorem C10_rejected_table_is_fatal : forall opts files args, build opts 0 [] = None -> parse opts files args = Fatal.
Proof. exact parse_bad_table. Qed.
Print Assumptions C10_rejected_table_is_fatal.
Theorem C10_unnamed_option_rejected : forall opts i m o, In o opts -> single o = None -> name o = None -> build opts i m = None.
Proof. exact unnamed_option_rejected. Qed.
Print Assumptions C10_unnamed_option_rejected.

(* Every declared name is found under its own index (no declaration shadows another) *)
Theorem C10_option_table_complete : forall opts i m m', build opts i m = Some m' ->
  (forall k j, lookup m k = Some j -> lookup m' k = Some j) /\
  (forall n o, nth_error opts n = Some o ->
     (forall c, single o = Some c -> lookup m' [c] = Some (i + n)%nat) /\ (forall nm, name o = Some nm -> lookup m' nm = Some (i + n)%nat)).
Proof. exact build_spec. Qed.
Print Assumptions C10_option_table_complete.

(* the hypotheses are satisfiable: a concrete table, vector, split and tail *)
Module NonVacuous.
  (* -h/--help, -v/--verbose (bool), -n/--num (int8), --out (string), -I (slice of string) *)
  Definition tbl : list option_ :=
    [ {| single := Some 104; name := Some [104;101;108;112]; knd := KBool |};
      {| single := Some 118; name := Some [118;101;114;98;111;115;101]; knd := KBool |};
      {| single := Some 110; name := Some [110;117;109]; knd := KInt 8 true |};
      {| single := None; name := Some [111;117;116]; knd := KStr |};
      {| single := Some 73; name := None; knd := KSlice KStr |} ].
  Definition segs : list seg :=
    [ Inline [IShortJoin [1%nat] 2%nat [45;49;50;56]; ILongSep 3%nat [64;120]];          (* -vn-128 --out @x *)
      InFile [114;115;112] [IShortEq [] 4%nat [45;45]; ILongEq 2%nat [48;49;55]; IGroup [1%nat; 1%nat]];   (* @rsp: -I=-- --num=017 -vv *)
      Inline [IShortSep [] 4%nat []] ].                                                  (* -I "" *)
  Definition tl := TPos [45] [[45;45;110;117;109]; [64;114;115;112]; []].               (* - --num @rsp "" *)
  Example table_accepted : exists m, build tbl 0 [] = Some m.
  Proof. eexists. vm_compute. reflexivity. Qed.
  Example intents_wf : Forall (wf_intent tbl) (intents_of segs).
  Proof.
    unfold segs, intents_of. cbn [flat_map seg_intents app].
    repeat constructor; try (cbn; unfold has_long, has_short, flag, valued; repeat split);
      try (eexists _, _; repeat split; try reflexivity; try discriminate; vm_compute; congruence);
      try (vm_compute; reflexivity); try discriminate; try (eexists _, _; split; [reflexivity|discriminate]).
  Qed.
  Example tail_wf : wf_tail tl. Proof. right; left; reflexivity. Qed.
  Example names_distinct : NoDup (file_names segs). Proof. repeat constructor; intros []. Qed.
  Example nobody_asks_for_help : Forall (fun p => fst p <> 0%nat) (assigns_all (intents_of segs)).
  Proof. repeat constructor; discriminate. Qed.
  Example result :
    parse tbl (files_of tbl segs) (render tbl segs ++ tail_args tl) =
    Done [(1%nat, str_true); (2%nat, [45;49;50;56]); (3%nat, [64;120]); (4%nat, [45;45]); (2%nat, [48;49;55]); (1%nat, str_true); (1%nat, str_true); (4%nat, [])]
         [[45]; [45;45;110;117;109]; [64;114;115;112]; []].
  Proof. vm_compute. reflexivity. Qed.
  Example a_malformed_continuation : exists m, build tbl 0 [] = Some m /\ malformed tbl m [dashes [118;101;114;98;111;115;101;61;49]].   (* --verbose=1 *)
  Proof.
    eexists. split; [vm_compute; reflexivity|].
    apply (BadFlagValue tbl _ 1%nat [49] []); [|reflexivity].
    eexists _, _. repeat split; try reflexivity; try discriminate.
  Qed.
End NonVacuous.
