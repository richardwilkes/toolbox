(* C10 — the scanner one argument at a time: an equation per shape of argument, used for the valid spellings and the malformed
   ones alike. Fuel is written as (what a block of arguments needs) + (what is left), so that no step needs arithmetic. *)
From Coq Require Import ZArith List Bool Lia.
From Verif Require Import common.ListFacts C10.Model C10.Spec.
Import ListNotations.
Open Scope Z_scope.

Lemma seq_eq_spec : forall a b, seq_eq a b = true <-> a = b.
Proof. exact (list_eqb_spec Z.eqb Z.eqb_eq). Qed.
Lemma seq_eq_refl a : seq_eq a a = true.
Proof. apply seq_eq_spec. reflexivity. Qed.
Lemma seq_eq_neq a b : a <> b -> seq_eq a b = false.
Proof. intro H. destruct (seq_eq a b) eqn:E; [|reflexivity]. apply seq_eq_spec in E. contradiction. Qed.

Lemma lookup_cons k i m k' : lookup ((k, i) :: m) k' = if seq_eq k k' then Some i else lookup m k'.
Proof. unfold lookup. cbn. destruct (seq_eq k k'); reflexivity. Qed.

Definition add (k : str) (i : nat) (m : list (str * nat)) : option (list (str * nat)) :=
  match lookup m k with Some _ => None | None => Some ((k, i) :: m) end.
Lemma build_cons o r i m : build (o :: r) i m =
  match single o, name o with
  | None, None => None
  | _, _ => match (match single o with Some c => add [c] i m | None => Some m end) with
            | None => None
            | Some m1 => match (match name o with Some n => add n i m1 | None => Some m1 end) with
                         | None => None
                         | Some m2 => build r (S i) m2
                         end
            end
  end.
Proof. reflexivity. Qed.
Lemma add_opt_spec {A} (f : A -> str) (oa : option A) i m m' :
  match oa with Some a => add (f a) i m | None => Some m end = Some m' ->
  (forall a, oa = Some a -> lookup m' (f a) = Some i) /\ (forall k j, lookup m k = Some j -> lookup m' k = Some j).
Proof.
  destruct oa as [a|]; [|intros [= <-]; split; [discriminate|auto]].
  unfold add. destruct (lookup m (f a)) eqn:L; [discriminate|]. intros [= <-]. split.
  - intros ? [= <-]. rewrite lookup_cons, seq_eq_refl. reflexivity.
  - intros k j H. rewrite lookup_cons. destruct (seq_eq (f a) k) eqn:E; [|exact H]. apply seq_eq_spec in E. congruence.
Qed.

Lemma build_spec : forall opts i m m', build opts i m = Some m' ->
  (forall k j, lookup m k = Some j -> lookup m' k = Some j) /\
  (forall n o, nth_error opts n = Some o ->
     (forall c, single o = Some c -> lookup m' [c] = Some (i + n)%nat) /\ (forall nm, name o = Some nm -> lookup m' nm = Some (i + n)%nat)).
Proof.
  induction opts as [|o opts IH]; intros i m m' H.
  - injection H as <-. split; [auto|]. intros [|n] o' Hn; discriminate.
  - rewrite build_cons in H.
    destruct (match single o with Some c => add [c] i m | None => Some m end) as [m1|] eqn:E1; [|destruct (single o), (name o); discriminate].
    destruct (match name o with Some n => add n i m1 | None => Some m1 end) as [m2|] eqn:E2; [|destruct (single o), (name o); discriminate].
    assert (B : build opts (S i) m2 = Some m') by (revert H; destruct (single o), (name o); try discriminate; auto).
    destruct (add_opt_spec (fun c => [c]) _ _ _ _ E1) as [S1 K1]. destruct (add_opt_spec (fun n => n) _ _ _ _ E2) as [S2 K2].
    destruct (IH _ _ _ B) as [Hkeep Hnew]. split; [intros k j Hk; apply Hkeep, K2, K1, Hk|].
    intros [|n] o' Hn.
    + injection Hn as <-. rewrite Nat.add_0_r. split; [intros c Hc; apply Hkeep, K2, S1, Hc|intros nm Hnm; apply Hkeep, S2, Hnm].
    + rewrite Nat.add_succ_r. apply (Hnew n o' Hn).
Qed.

Theorem unnamed_option_rejected : forall opts i m o, In o opts -> single o = None -> name o = None -> build opts i m = None.
Proof.
  induction opts as [|o' opts IH]; intros i m o Hin Hs Hn; [contradiction|]. rewrite build_cons. destruct Hin as [->|Hin].
  - rewrite Hs, Hn. reflexivity.
  - assert (Rest : forall m2, build opts (S i) m2 = None) by (intro; eapply IH; eauto).
    destruct (single o'), (name o'); try reflexivity; repeat (destruct (add _ _ _); [|reflexivity]); apply Rest.
Qed.

(* one round per argument and one per file reference: what parse's total_len counts *)
Definition seg_need (opts : list option_) (s : seg) : nat :=
  match s with Inline its => length (spell_all opts its) | InFile _ its => S (length (spell_all opts its)) end.
Definition need (opts : list option_) (segs : list seg) : nat := fold_right (fun s a => (seg_need opts s + a)%nat) 0%nat segs.
Lemma fold_len_acc {A} (l : list (A * list str)) : forall a, fold_left (fun a p => (a + length (snd p))%nat) l a = (a + fold_left (fun a p => (a + length (snd p))%nat) l 0)%nat.
Proof. induction l as [|p l IH]; intro a; cbn; [lia|]. rewrite IH, (IH (length (snd p))). lia. Qed.
Lemma total_len_segs opts : forall segs, total_len (files_of opts segs) (render opts segs) = need opts segs.
Proof.
  unfold total_len. induction segs as [|s segs IH]; [reflexivity|].
  unfold files_of, render in *. cbn [flat_map]. change (need opts (s :: segs)) with (seg_need opts s + need opts segs)%nat.
  destruct s as [its|f its]; cbn [seg_files seg_args seg_need app].
  - rewrite app_length. rewrite <- IH. lia.
  - cbn [fold_left length snd]. rewrite fold_len_acc. cbn [Nat.add]. rewrite <- IH. lia.
Qed.

Lemma assigns_all_app a b : assigns_all (a ++ b) = assigns_all a ++ assigns_all b.
Proof. apply flat_map_app. Qed.

Section Scan.
Variable opts : list option_.
Variable files : list (str * list str).
Variable m : list (str * nat).
Hypothesis Hm : build opts 0 [] = Some m.

Lemma has_short_lookup i : has_short opts i -> lookup m [single_of opts i] = Some i /\ single_of opts i <> 45.
Proof.
  intros (o & c & Hn & Hs & Hc). unfold single_of. rewrite Hn, Hs. split; [|exact Hc].
  apply (proj1 (proj2 (build_spec _ _ _ _ Hm) i o Hn)), Hs.
Qed.
Lemma has_long_lookup i : has_long opts i ->
  lookup m (name_of opts i) = Some i /\ name_of opts i <> [] /\ index_of 61 (name_of opts i) 0 = None.
Proof.
  intros (o & n & Hn & Hs & Hne & Hi). unfold name_of. rewrite Hn, Hs. split; [|split; assumption].
  apply (proj2 (proj2 (build_spec _ _ _ _ Hm) i o Hn)), Hs.
Qed.

Lemma shorts_flags : forall fl tl sets, short_flags opts fl ->
  shorts opts m (map (single_of opts) fl ++ tl) sets = shorts opts m tl (sets ++ set_flags fl).
Proof.
  induction fl as [|i fl IH]; intros tl sets H.
  - cbn. rewrite app_nil_r. reflexivity.
  - inversion H as [|? ? [Hs Hf] Hr]; subst. cbn [map app shorts]. destruct (has_short_lookup i Hs) as [L _]. rewrite L.
    unfold flag in Hf. rewrite Hf. rewrite IH by exact Hr. unfold set_flags. cbn [map]. rewrite <- app_assoc. reflexivity.
Qed.

Lemma index_of_app c : forall n v k, index_of c n k = None -> index_of c (n ++ c :: v) k = Some (k + length n)%nat.
Proof.
  induction n as [|x n IH]; intros v k H.
  - cbn. rewrite Z.eqb_refl. f_equal. lia.
  - cbn in H |- *. destruct (x =? c); [discriminate|]. rewrite IH by exact H. f_equal. lia.
Qed.
Lemma index_of_none_ge : forall n k, index_of 61 n k = None -> True. Proof. trivial. Qed.

Lemma scan_long_noeq F nm more seen sets rest : nm <> [] -> index_of 61 nm 0 = None ->
  scan opts files (S F) m (dashes nm :: more) Look seen sets rest =
  match lookup m nm with
  | None => Fatal
  | Some oi => if is_bool (kind_of opts oi) then scan opts files F m more Look seen (sets ++ [(oi, str_true)]) rest
               else scan opts files F m more (SetVal oi) seen sets rest
  end.
Proof. intros Hne Hi. destruct nm as [|c nm]; [congruence|]. unfold dashes. cbn [scan]. rewrite Hi. reflexivity. Qed.
(* the name may be empty here: "--=v" looks the empty name up *)
Lemma scan_long_eq F nm v more seen sets rest : index_of 61 nm 0 = None ->
  scan opts files (S F) m (dashes (nm ++ 61 :: v) :: more) Look seen sets rest =
  match lookup m nm with
  | None => Fatal
  | Some oi => if is_bool (kind_of opts oi) then Fatal
               else if valid (kind_of opts oi) v then scan opts files F m more Look seen (sets ++ [(oi, v)]) rest else Fatal
  end.
Proof.
  intro Hi. assert (exists c body, nm ++ 61 :: v = c :: body) as (c & body & E) by (destruct nm; cbn; eauto).
  unfold dashes. rewrite E. cbn [scan]. rewrite <- E, (index_of_app _ _ v 0%nat Hi). cbn [Nat.add]. rewrite firstn_app_exact, skipn_app_exact. reflexivity.
Qed.
Lemma scan_long_alone F i more seen sets rest : has_long opts i ->
  scan opts files (S F) m (dashes (name_of opts i) :: more) Look seen sets rest =
  if is_bool (kind_of opts i) then scan opts files F m more Look seen (sets ++ [(i, str_true)]) rest
  else scan opts files F m more (SetVal i) seen sets rest.
Proof. intro Hl. destruct (has_long_lookup i Hl) as (L & Hne & Hi). rewrite scan_long_noeq by assumption. rewrite L. reflexivity. Qed.
Lemma scan_long_value F i v more seen sets rest : has_long opts i ->
  scan opts files (S F) m (dashes (name_of opts i ++ 61 :: v) :: more) Look seen sets rest =
  if is_bool (kind_of opts i) then Fatal
  else if valid (kind_of opts i) v then scan opts files F m more Look seen (sets ++ [(i, v)]) rest else Fatal.
Proof. intro Hl. destruct (has_long_lookup i Hl) as (L & Hne & Hi). rewrite scan_long_eq by assumption. rewrite L. reflexivity. Qed.
Lemma scan_setval F v more cur seen sets rest :
  scan opts files (S F) m (v :: more) (SetVal cur) seen sets rest =
  if valid (kind_of opts cur) v then scan opts files F m more Look seen (sets ++ [(cur, v)]) rest else Fatal.
Proof. reflexivity. Qed.
Lemma scan_short F c1 body more seen sets rest : c1 <> 45 ->
  scan opts files (S F) m ((45 :: c1 :: body) :: more) Look seen sets rest =
  match shorts opts m (c1 :: body) sets with
  | None => Fatal
  | Some (sets', st') => scan opts files F m more st' seen sets' rest
  end.
Proof. intro H. cbn [scan]. destruct (Z.eqb_spec c1 45); [contradiction|reflexivity]. Qed.
Lemma scan_positional F p more seen sets rest : positional_start p ->
  scan opts files (S F) m (p :: more) Look seen sets rest = scan opts files F m more Collect seen sets (rest ++ [p]).
Proof.
  intros [-> | [-> | (c & r & -> & H1 & H2)]]; try reflexivity.
  cbn [scan]. rewrite (proj2 (Z.eqb_neq c 64) H2), (proj2 (Z.eqb_neq c 45) H1). reflexivity.
Qed.

(* the side condition says that the argument is not "--...": its second character is a flag's short name or, without flags,
   the head of tl *)
Lemma scan_group F fl tl more seen sets rest : short_flags opts fl -> (fl <> [] \/ exists c r, tl = c :: r /\ c <> 45) ->
  scan opts files (S F) m ((45 :: map (single_of opts) fl ++ tl) :: more) Look seen sets rest =
  match shorts opts m tl (sets ++ set_flags fl) with
  | None => Fatal
  | Some (sets', st') => scan opts files F m more st' seen sets' rest
  end.
Proof.
  intros Hf Hc.
  assert (exists c1 body, map (single_of opts) fl ++ tl = c1 :: body /\ c1 <> 45) as (c1 & body & E & Hc1).
  { destruct fl as [|f fl]; cbn.
    - destruct Hc as [Hc|(c & r & -> & Hc)]; [congruence|eauto].
    - inversion Hf as [|? ? [Hs _] _]; subst. eexists _, _. split; [reflexivity|]. apply (has_short_lookup f Hs). }
  rewrite E, scan_short by exact Hc1. rewrite <- E, shorts_flags by exact Hf. reflexivity.
Qed.
(* the lists are associated to the right, as assigns has them *)
Lemma scan_short_valued F fl i tl more seen sets rest : short_flags opts fl -> has_short opts i -> is_bool (kind_of opts i) = false ->
  scan opts files (S F) m ((45 :: map (single_of opts) fl ++ single_of opts i :: tl) :: more) Look seen sets rest =
  match tl with
  | [] => scan opts files F m more (SetVal i) seen (sets ++ set_flags fl) rest
  | c :: v => let v' := if c =? 61 then v else tl in
              if valid (kind_of opts i) v' then scan opts files F m more Look seen (sets ++ set_flags fl ++ [(i, v')]) rest else Fatal
  end.
Proof.
  intros Hf Hs Hb. destruct (has_short_lookup i Hs) as [L N]. rewrite scan_group by (try exact Hf; right; eauto).
  cbn [shorts]. rewrite L, Hb. destruct tl as [|c v]; [reflexivity|]. cbv zeta. rewrite <- app_assoc. destruct (valid _ _); reflexivity.
Qed.

Lemma scan_intent it more seen sets rest F : wf_intent opts it ->
  scan opts files (length (spell opts it) + F) m (spell opts it ++ more) Look seen sets rest =
  scan opts files F m more Look seen (sets ++ assigns it) rest.
Proof.
  intros W. destruct it as [i|i v|i v|fl|fl i v|fl i v|fl i v]; cbn [spell assigns length app Nat.add] in *.
  - destruct W as [Hl Hf]. rewrite scan_long_alone, Hf by exact Hl. reflexivity.
  - destruct W as [Hl [Hb Hv]]. rewrite scan_long_value, Hb, Hv by exact Hl. reflexivity.
  - destruct W as [Hl [Hb Hv]]. rewrite scan_long_alone, Hb, scan_setval, Hv by exact Hl. reflexivity.
  - destruct W as [Hne Hf]. rewrite <- (app_nil_r (map _ fl)), scan_group by auto. reflexivity.
  - destruct W as (Hf & Hs & Hb & Hv). rewrite scan_short_valued, scan_setval, Hv, <- app_assoc by assumption. reflexivity.
  - destruct W as (Hf & Hs & [Hb Hv] & (c & r & -> & Hc)). rewrite scan_short_valued by assumption. rewrite (proj2 (Z.eqb_neq c 61) Hc). cbv zeta. rewrite Hv. reflexivity.
  - destruct W as (Hf & Hs & Hb & Hv). rewrite scan_short_valued by assumption. rewrite Z.eqb_refl. cbv zeta. rewrite Hv. reflexivity.
Qed.

Lemma scan_intents : forall its more seen sets rest F, Forall (wf_intent opts) its ->
  scan opts files (length (spell_all opts its) + F) m (spell_all opts its ++ more) Look seen sets rest =
  scan opts files F m more Look seen (sets ++ assigns_all its) rest.
Proof.
  induction its as [|it its IH]; intros more seen sets rest F W.
  - cbn. rewrite app_nil_r. reflexivity.
  - inversion W as [|? ? W1 W2]; subst. unfold spell_all, assigns_all in *. cbn [flat_map].
    rewrite app_length, <- Nat.add_assoc, <- app_assoc, scan_intent, IH, app_assoc by assumption. reflexivity.
Qed.

Lemma scan_collect : forall tl F seen sets rest, scan opts files (S (length tl + F)) m tl Collect seen sets rest = Done sets (rest ++ tl).
Proof.
  induction tl as [|a tl IH]; intros F seen sets rest.
  - cbn. rewrite app_nil_r. reflexivity.
  - change (scan opts files (S (length tl + F)) m tl Collect seen sets (rest ++ [a]) = Done sets (rest ++ a :: tl)).
    rewrite IH, <- app_assoc. reflexivity.
Qed.

Lemma scan_tail t F seen sets rest : wf_tail t ->
  scan opts files (S (length (tail_args t)) + F) m (tail_args t) Look seen sets rest = Done sets (rest ++ tail_rest t).
Proof.
  intros W. destruct t as [|l|p l]; cbn [tail_args tail_rest length Nat.add] in *.
  - cbn. rewrite app_nil_r. reflexivity.
  - exact (scan_collect l F seen sets rest).
  - rewrite scan_positional by exact W. rewrite (scan_collect l F), <- app_assoc. reflexivity.
Qed.

Lemma scan_file F f ins more seen sets rest : mem f seen = false -> find (fun p => seq_eq (fst p) f) files = Some (f, ins) ->
  scan opts files (S F) m ((64 :: f) :: more) Look seen sets rest = scan opts files F m (ins ++ more) Look (f :: seen) sets rest.
Proof. intros Hs Hf. cbn [scan]. rewrite Hs, Hf. reflexivity. Qed.
Lemma scan_file_again F f more seen sets rest : mem f seen = true -> scan opts files F m ((64 :: f) :: more) Look seen sets rest = Fatal.
Proof. intro Hs. destruct F; [reflexivity|]. cbn [scan]. rewrite Hs. reflexivity. Qed.
Lemma scan_file_missing F f more seen sets rest : find (fun p => seq_eq (fst p) f) files = None ->
  scan opts files F m ((64 :: f) :: more) Look seen sets rest = Fatal.
Proof. intro Hf. destruct F; [reflexivity|]. cbn [scan]. rewrite Hf. destruct (mem f seen); reflexivity. Qed.

(* malformed continuations: the same one-step equations, with the look-up failing or the value rejected *)
Lemma scan_malformed sfx : malformed opts m sfx -> forall F seen sets rest, scan opts files F m sfx Look seen sets rest = Fatal.
Proof.
  intros B F seen sets rest. destruct F as [|F]; [reflexivity|].
  destruct B as [nm more Hne Hi L | nm v more Hne Hi L | v more L | i v more Hl Hf | i v more Hl [Hb Hv] | i v more Hl [Hb Hv] | i Hl Hb
                | fl c r more Hf L Hc | fl i v more Hf Hs [Hb Hv] | fl i c r more Hf Hs [Hb Hv] Hc | fl i v more Hf Hs [Hb Hv] | fl i Hf Hs Hb].
  - rewrite scan_long_noeq by assumption. rewrite L. reflexivity.
  - rewrite scan_long_eq by assumption. rewrite L. reflexivity.
  - change (61 :: v) with ([] ++ 61 :: v). rewrite scan_long_eq by reflexivity. rewrite L. reflexivity.
  - rewrite scan_long_value, Hf by exact Hl. reflexivity.
  - rewrite scan_long_value, Hb, Hv by exact Hl. reflexivity.
  - rewrite scan_long_alone, Hb by exact Hl.
    destruct F as [|F]; [reflexivity|]. rewrite scan_setval, Hv. reflexivity.
  - rewrite scan_long_alone, Hb by exact Hl. destruct F; reflexivity.
  - rewrite scan_group by (try exact Hf; destruct Hc; eauto). cbn [shorts]. rewrite L. reflexivity.
  - rewrite scan_short_valued by assumption. destruct F as [|F]; [reflexivity|]. rewrite scan_setval, Hv. reflexivity.
  - rewrite scan_short_valued by assumption. rewrite (proj2 (Z.eqb_neq c 61) Hc). cbv zeta. rewrite Hv. reflexivity.
  - rewrite scan_short_valued by assumption. rewrite Z.eqb_refl. cbv zeta. rewrite Hv. reflexivity.
  - rewrite scan_short_valued by assumption. destruct F; reflexivity.
Qed.

Lemma scan_segs : forall segs more seen sets rest F,
  (forall f its, In (InFile f its) segs -> find (fun p => seq_eq (fst p) f) files = Some (f, spell_all opts its)) ->
  NoDup (file_names segs) -> (forall f, In f (file_names segs) -> mem f seen = false) ->
  Forall (wf_intent opts) (intents_of segs) ->
  exists seen', scan opts files (need opts segs + F) m (render opts segs ++ more) Look seen sets rest =
                scan opts files F m more Look seen' (sets ++ assigns_all (intents_of segs)) rest.
Proof.
  induction segs as [|s segs IH]; intros more seen sets rest F Hfind Hnd Hseen W.
  - exists seen. cbn. rewrite app_nil_r. reflexivity.
  - unfold render, intents_of, file_names in *. cbn [flat_map] in *. change (need opts (s :: segs)) with (seg_need opts s + need opts segs)%nat.
    apply Forall_app in W. destruct W as [W1 W2]. rewrite assigns_all_app, app_assoc, <- Nat.add_assoc.
    destruct s as [its|f its]; cbn [seg_args seg_intents seg_names seg_need app] in *.
    + destruct (IH more seen (sets ++ assigns_all its) rest F) as [seen' E]; [intros; apply Hfind; right; assumption | exact Hnd | exact Hseen | exact W2 |].
      exists seen'. rewrite <- app_assoc, scan_intents by exact W1. exact E.
    + inversion Hnd as [|? ? Hnotin Hnd']; subst.
      destruct (IH more (f :: seen) (sets ++ assigns_all its) rest F) as [seen' E]; [intros; apply Hfind; right; assumption | exact Hnd' | | exact W2 |].
      { intros g Hg. cbn [mem existsb]. rewrite seq_eq_neq by (intros ->; contradiction). apply (Hseen g (or_intror Hg)). }
      exists seen'. cbn [Nat.add]. rewrite (scan_file _ f (spell_all opts its)) by (try (apply Hseen; left; reflexivity); apply Hfind; left; reflexivity).
      rewrite scan_intents by exact W1. exact E.
Qed.
End Scan.

Lemma find_files_of opts : forall segs f its, NoDup (file_names segs) -> In (InFile f its) segs ->
  find (fun p => seq_eq (fst p) f) (files_of opts segs) = Some (f, spell_all opts its).
Proof.
  induction segs as [|s segs IH]; intros f its Hnd Hin; [contradiction|].
  unfold files_of, file_names in *. cbn [flat_map] in *. destruct Hin as [->|Hin].
  - cbn. rewrite seq_eq_refl. reflexivity.
  - destruct s as [its'|g its']; cbn [seg_files seg_names app] in *; [apply IH; assumption|].
    inversion Hnd as [|? ? Hnotin Hnd']; subst. cbn [find fst]. rewrite seq_eq_neq; [apply IH; assumption|].
    intros ->. apply Hnotin. apply in_flat_map. exists (InFile f its). split; [exact Hin|left; reflexivity].
Qed.

Lemma parse_scan opts m segs t : build opts 0 [] = Some m ->
  Forall (wf_intent opts) (intents_of segs) -> wf_tail t -> NoDup (file_names segs) ->
  parse opts (files_of opts segs) (render opts segs ++ tail_args t) =
  if existsb (fun p => (fst p =? 0)%nat) (assigns_all (intents_of segs)) then Fatal else Done (assigns_all (intents_of segs)) (tail_rest t).
Proof.
  intros Hm W Wt Hnd. unfold parse. rewrite Hm.
  set (F := (S (total_len (files_of opts segs) (render opts segs ++ tail_args t)) * 2)%nat).
  (* parse gives twice what the segments and the tail need *)
  set (spare := (F - need opts segs - S (length (tail_args t)))%nat).
  replace F with (need opts segs + (S (length (tail_args t)) + spare))%nat
    by (subst F spare; unfold total_len; rewrite app_length; pose proof (total_len_segs opts segs) as T; unfold total_len in T; lia).
  destruct (scan_segs opts (files_of opts segs) m Hm segs (tail_args t) [] [] [] (S (length (tail_args t)) + spare)) as [seen' E];
    [intros; apply find_files_of; assumption | exact Hnd | reflexivity | exact W |].
  rewrite E, scan_tail by exact Wt. reflexivity.
Qed.

Lemma no_help sets : Forall (fun p : nat * str => fst p <> 0%nat) sets -> existsb (fun p => (fst p =? 0)%nat) sets = false.
Proof. induction 1 as [|p l Hp _ IH]; [reflexivity|]. cbn. rewrite IH. rewrite (proj2 (Nat.eqb_neq _ _) Hp). reflexivity. Qed.

Theorem parse_valid opts m segs t : build opts 0 [] = Some m ->
  Forall (wf_intent opts) (intents_of segs) -> wf_tail t -> NoDup (file_names segs) ->
  Forall (fun p => fst p <> 0%nat) (assigns_all (intents_of segs)) ->
  parse opts (files_of opts segs) (render opts segs ++ tail_args t) = Done (assigns_all (intents_of segs)) (tail_rest t).
Proof. intros Hm W Wt Hnd Hh. rewrite (parse_scan opts m), no_help by assumption. reflexivity. Qed.

Theorem parse_help_requested opts m segs t : build opts 0 [] = Some m ->
  Forall (wf_intent opts) (intents_of segs) -> wf_tail t -> NoDup (file_names segs) ->
  Exists (fun p => fst p = 0%nat) (assigns_all (intents_of segs)) ->
  parse opts (files_of opts segs) (render opts segs ++ tail_args t) = Fatal.
Proof.
  intros Hm W Wt Hnd Hh. rewrite (parse_scan opts m) by assumption.
  replace (existsb _ _) with true; [reflexivity|]. symmetry. apply existsb_exists. apply Exists_exists in Hh.
  destruct Hh as (p & Hin & Hp). exists p. split; [exact Hin|]. rewrite Hp. reflexivity.
Qed.

Theorem parse_malformed opts files m its sfx : build opts 0 [] = Some m ->
  Forall (wf_intent opts) its -> malformed opts m sfx -> parse opts files (spell_all opts its ++ sfx) = Fatal.
Proof.
  intros Hm W B. unfold parse. rewrite Hm. set (F := (S (total_len files (spell_all opts its ++ sfx)) * 2)%nat).
  replace F with (length (spell_all opts its) + (F - length (spell_all opts its)))%nat by (subst F; unfold total_len; rewrite app_length; lia).
  rewrite (scan_intents opts files m Hm) by exact W. rewrite (scan_malformed opts files m Hm) by exact B. reflexivity.
Qed.

Theorem parse_help opts files args : (forall m sets rest F, build opts 0 [] = Some m -> scan opts files F m args Look [] [] [] = Done sets rest ->
  existsb (fun p => (fst p =? 0)%nat) sets = true) -> parse opts files args = Fatal.
Proof.
  intro H. unfold parse. destruct (build opts 0 []) as [m|] eqn:Hm; [|reflexivity].
  destruct (scan _ _ _ _ _ _ _ _ _) as [|sets rest] eqn:E; [reflexivity|]. rewrite (H m sets rest _ eq_refl E). reflexivity.
Qed.

Theorem parse_bad_table opts files args : build opts 0 [] = None -> parse opts files args = Fatal.
Proof. intro H. unfold parse. rewrite H. reflexivity. Qed.

(* both sides are parse_scan's right-hand side, the second for the same intents written inline *)
Lemma parse_files_transparent_any opts m segs t : build opts 0 [] = Some m ->
  Forall (wf_intent opts) (intents_of segs) -> wf_tail t -> NoDup (file_names segs) ->
  parse opts (files_of opts segs) (render opts segs ++ tail_args t) = parse opts [] (spell_all opts (intents_of segs) ++ tail_args t).
Proof.
  intros Hm W Wt Hnd. rewrite (parse_scan opts m segs t) by assumption.
  pose proof (parse_scan opts m [Inline (intents_of segs)] t Hm) as P.
  unfold render, files_of, file_names, intents_of in P. cbn [flat_map seg_args seg_files seg_names seg_intents app] in P.
  rewrite !app_nil_r in P. symmetry. apply P; [exact W | exact Wt | constructor].
Qed.
