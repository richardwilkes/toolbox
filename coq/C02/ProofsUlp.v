(* C02 — AsFloat64 beyond 2^53. round53 is round-to-nearest-even to 53 significant bits (float64 of an integer, and float64 addition of two such values,
   kept as exact integers); Uint128.AsFloat64 computes round53 (round53 hi * 2^64 + round53 lo) - three roundings. *)
From Coq Require Import ZArith Bool Lia.
From Verif Require Import common.Word64 common.Word64Facts C01.Model C01.ProofsBits C01.ProofsInt C02.Model C02.Proofs.
Open Scope Z_scope.

Definition ulp (n : Z) : Z := 2 ^ (Z.log2 n - 52).
Lemma log2_P53 n : P53 <= n -> 53 <= Z.log2 n.
Proof. intro H. unfold P53 in H. apply Z.log2_le_pow2; [lia|]. change (2 ^ 53) with 9007199254740992. lia. Qed.
Lemma ulp_pos n : P53 <= n -> 0 < ulp n.
Proof. intro H. pose proof (log2_P53 n H). apply Z.pow_pos_nonneg; lia. Qed.
Lemma ulp_le_value m : P53 <= m -> ulp m * 4503599627370496 <= m.
Proof.
  intro H. pose proof (log2_P53 m H). unfold P53 in H. destruct (Z.log2_spec m ltac:(lia)) as [A _].
  unfold ulp. change 4503599627370496 with (2 ^ 52). rewrite <- Z.pow_add_r by lia. replace (Z.log2 m - 52 + 52) with (Z.log2 m) by lia. exact A.
Qed.
Lemma ulp_mono a b : a <= b -> ulp a <= ulp b.
Proof.
  intro H. pose proof (Z.log2_le_mono a b H) as M. unfold ulp. destruct (Z_lt_le_dec (Z.log2 a - 52) 0) as [N|N].
  - rewrite (Z.pow_neg_r 2 _ N). apply Z.pow_nonneg. lia.
  - apply Z.pow_le_mono_r; lia.
Qed.

Lemma ulp_two_words h l : 1 <= h -> 0 <= l < W -> ulp (h * W + l) = 2 ^ (Z.log2 h + 12).
Proof. intros Hh Hl. unfold ulp. rewrite (log2_uval h l) by (unfold w64; lia). f_equal. lia. Qed.

(* rounding n = 2p * q0 + r to the nearer multiple of 2p, ties to the even quotient; m stands for 2^52 and nothing depends on its
   value *)
Lemma nearest_even m p n q0 r : 0 < p -> m * (2 * p) <= n < 2 * m * (2 * p) -> n = 2 * p * q0 + r -> 0 <= r < 2 * p ->
  let q := if (p <? r) || (r =? p) && Z.odd q0 then q0 + 1 else q0 in
  m <= q <= 2 * m /\ 2 * Z.abs (q * (2 * p) - n) <= 2 * p /\ (2 * Z.abs (q * (2 * p) - n) = 2 * p -> Z.even q = true).
Proof.
  intros Hp Hn -> Hr. assert (Q : m <= q0 < 2 * m) by nia. clear Hn. cbv zeta.
  destruct (Z.ltb_spec p r); [|destruct (Z.eqb_spec r p)]; cbn [orb andb]; [|destruct (Z.odd q0) eqn:O|].
  all: repeat split; try lia; intro T; try (exfalso; lia).
  - rewrite Z.even_add, <- Z.negb_odd, O. reflexivity.
  - rewrite <- Z.negb_odd, O. reflexivity.
Qed.
Lemma round53_grid_lt k g n : 1 <= k -> g = 2 ^ k -> 4503599627370496 * g <= n < 9007199254740992 * g ->
  exists q, round53 n = q * g /\ 4503599627370496 <= q <= 9007199254740992 /\
            2 * Z.abs (q * g - n) <= g /\ (2 * Z.abs (q * g - n) = g -> Z.even q = true).
Proof.
  intros Hk -> [L1 L2]. assert (Hp : 0 < 2 ^ (k - 1)) by (apply Z.pow_pos_nonneg; lia).
  assert (E1 : 2 ^ k = 2 * 2 ^ (k - 1)). { rewrite <- Z.pow_succ_r by lia. f_equal. lia. }
  assert (LG : Z.log2 n - 52 = k).
  { rewrite (Z.log2_unique n (52 + k)); [lia|lia|]. rewrite Z.pow_succ_r, Z.pow_add_r by lia. change (2 ^ 52) with 4503599627370496. lia. }
  unfold round53. rewrite (proj2 (Z.ltb_ge n P53)), LG by (unfold P53; lia). rewrite E1 in *. eexists. split; [reflexivity|].
  apply (nearest_even 4503599627370496); [exact Hp | lia | apply Z.div_mod; lia | apply Z.mod_pos_bound; lia].
Qed.
(* the top of the range, 2^53 * g, is a point of the next coarser grid and hence its own rounding *)
Lemma round53_grid k g n : 1 <= k -> g = 2 ^ k -> 4503599627370496 * g <= n <= 9007199254740992 * g ->
  exists q, round53 n = q * g /\ 4503599627370496 <= q <= 9007199254740992 /\
            2 * Z.abs (q * g - n) <= g /\ (2 * Z.abs (q * g - n) = g -> Z.even q = true).
Proof.
  intros Hk Eg Hn. assert (0 < g) by (subst g; apply Z.pow_pos_nonneg; lia).
  destruct (Z.eq_dec n (9007199254740992 * g)) as [->|]; [|apply (round53_grid_lt k); [assumption..|lia]].
  destruct (round53_grid_lt (k + 1) (2 * g) (9007199254740992 * g)) as (q & E & _ & B & _); [lia|subst g; rewrite Z.pow_add_r by lia; ring|lia|].
  assert (q = 4503599627370496) by nia. subst q. exists 9007199254740992. rewrite E. repeat split; lia.
Qed.
Lemma round53_spec n : P53 <= n ->
  exists q, round53 n = q * 2 ^ (Z.log2 n - 52) /\ 4503599627370496 <= q <= 9007199254740992 /\
            2 * Z.abs (q * 2 ^ (Z.log2 n - 52) - n) <= 2 ^ (Z.log2 n - 52) /\
            (2 * Z.abs (q * 2 ^ (Z.log2 n - 52) - n) = 2 ^ (Z.log2 n - 52) -> Z.even q = true).
Proof.
  intro H. pose proof (log2_P53 n H). unfold P53 in H. destruct (Z.log2_spec n ltac:(lia)) as [L1 L2].
  apply (round53_grid (Z.log2 n - 52)); [lia|reflexivity|]. rewrite Z.pow_succ_r in L2 by lia.
  replace (Z.log2 n) with (52 + (Z.log2 n - 52)) in L1, L2 at 1 by lia. rewrite Z.pow_add_r in L1, L2 by lia. change (2 ^ 52) with 4503599627370496 in *. lia.
Qed.

(* The arithmetic of mag53_ulp for a value hi * W + lo of two words, W = 2^64. Throughout a = round53 hi and b = round53 lo (within
   1024 = 2^11 / 2 of lo, a word being rounded on a grid of at most 2^(64-53)); the result is the rounding of a * W + b. Why the three
   roundings stay below one ulp: with hi < 2^53 the high word is exact (exact_high), the ulp is at least 2^12, the low word is off by
   at most 2^10 and the last rounding by half an ulp. Otherwise hi is rounded on the grid g = 2^(log2 hi - 52) to a = qa * g and the
   ulp of the value is g * W; the sum a * W + b lies at most half a grid step above the grid point a * W - of the grid g * W if a
   stayed in the binade (same_binade), of 2 * (g * W) if a was rounded up to the power of two 2^53 * g (next_binade) - so the last
   rounding returns a * W, which is within half an ulp of hi * W and less than one of hi * W + lo. The exception b = W on the grid
   g = 2 is a tie, which evenness sends to a * W unless hi was itself exact. *)
Lemma grid_step b d U : 0 < U -> 0 <= 2 * b <= U -> 2 * Z.abs (d * U - b) <= U -> d = 0 \/ d = 1.
Proof. intros HU Hb H. assert (0 <= d) by nia. assert (d <= 1) by nia. lia. Qed.
Lemma high_word_alone g a hi lo : 2 <= g -> 2 * Z.abs (a - hi) <= g -> 0 <= lo < W ->
  - (g * W) < a * W - (hi * W + lo) < g * W.
Proof. intros Hg Ha Hl. assert (- g <= 2 * (a - hi) <= g) by lia. nia. Qed.

(* the sum is rounded to a * W or one grid step above; the step above needs b = W, g = 2 and a tie, and then evenness of qa + 1
   forces qa odd, so hi was no tie: a = hi *)
Lemma same_binade g qa a hi lo b q' : 2 <= g -> a = qa * g -> 2 * Z.abs (a - hi) <= g -> (2 * Z.abs (a - hi) = g -> Z.even qa = true) ->
  0 <= lo < W -> 0 <= b <= W -> Z.abs (b - lo) <= 1024 ->
  2 * Z.abs (q' * (g * W) - (a * W + b)) <= g * W -> (2 * Z.abs (q' * (g * W) - (a * W + b)) = g * W -> Z.even q' = true) ->
  - (g * W) < q' * (g * W) - (hi * W + lo) < g * W.
Proof.
  intros Hg Ea Ha Ta Hl Hb Hbl Hs Ts.
  assert (D : q' - qa = 0 \/ q' - qa = 1).
  { apply (grid_step b (q' - qa) (g * W)); [nia|nia|]. replace ((q' - qa) * (g * W) - b) with (q' * (g * W) - (a * W + b)) by (subst a; ring). exact Hs. }
  destruct D as [D|D].
  - assert (q' = qa) by lia. subst q'. replace (qa * (g * W)) with (a * W) by (subst a; ring). apply high_word_alone; assumption.
  - assert (E : q' = qa + 1) by lia. subst q'.
    assert (X : (qa + 1) * (g * W) - (a * W + b) = g * W - b) by (subst a; ring). rewrite X in Hs, Ts.
    assert (Bw : b = W /\ g = 2) by (rewrite Z.abs_eq in Hs by nia; nia). destruct Bw as [-> ->].
    rewrite Z.abs_eq in Ts by lia. destruct (proj1 (Z.even_spec _) (Ts ltac:(lia))) as [m Em].
    assert (A0 : a = hi).
    { destruct (Z.eq_dec (2 * Z.abs (a - hi)) 2) as [T|T]; [destruct (proj1 (Z.even_spec _) (Ta T)) as [m' Em']; lia|lia]. }
    subst hi. lia.
Qed.
(* on the coarser grid the sum is rounded back to a * W = 2^52 * (2 * (g * W)) *)
Lemma next_binade g a hi lo b q' : 2 <= g -> a = 9007199254740992 * g -> 2 * Z.abs (a - hi) <= g ->
  0 <= lo < W -> 0 <= b <= W -> 4503599627370496 <= q' ->
  2 * Z.abs (q' * (2 * (g * W)) - (a * W + b)) <= 2 * (g * W) ->
  - (g * W) < q' * (2 * (g * W)) - (hi * W + lo) < g * W.
Proof.
  intros Hg Ea Ha Hl Hb Hq Hs.
  assert (D : q' = 4503599627370496).
  { assert (q' - 4503599627370496 <= 0) by (subst a; nia). lia. }
  subst q'. replace (4503599627370496 * (2 * (g * W))) with (a * W) by (subst a; ring). apply high_word_alone; assumption.
Qed.
(* p = 2^(log2 hi): the value has 65 + log2 hi bits, so its ulp is 2^(64-52) * p = 4096 * p, half of which is left after the last
   rounding for the error 1024 of the low word *)
Lemma exact_high p hi lo b R : 1 <= p -> Z.abs (b - lo) <= 1024 -> 2 * Z.abs (R - (hi * W + b)) <= 4096 * p ->
  - (4096 * p) < R - (hi * W + lo) < 4096 * p.
Proof. intros. lia. Qed.

Lemma round53_lo lo : 0 <= lo < W -> 0 <= round53 lo <= W /\ Z.abs (round53 lo - lo) <= 1024.
Proof.
  intro H. destruct (Z_lt_le_dec lo P53) as [S|S]; [rewrite round53_small by exact S; unfold P53 in S; lia|].
  destruct (round53_spec lo S) as (q & E & Q & B & _). pose proof (log2_P53 lo S) as L1. unfold P53 in S.
  assert (L2 : Z.log2 lo < 64) by (apply Z.log2_lt_pow2; [lia|]; change (2 ^ 64) with W; lia).
  rewrite E. remember (Z.log2 lo - 52) as k. assert (K : 1 <= k <= 11) by lia.
  assert (P : 2 <= 2 ^ k <= 2048). { split; [change 2 with (2 ^ 1) at 1|change 2048 with (2 ^ 11)]; apply Z.pow_le_mono_r; lia. }
  destruct (Z.log2_spec lo ltac:(lia)) as [_ U]. replace (Z.succ (Z.log2 lo)) with (53 + k) in U by lia. rewrite Z.pow_add_r in U by lia.
  change (2 ^ 53) with 9007199254740992 in *.
  remember (2 ^ k) as g. split; [|lia]. split; [nia|].
  (* q * g <= 2^53 * g = 2^(log2 lo + 1) <= 2^64 *)
  apply Z.le_trans with (9007199254740992 * g); [apply Z.mul_le_mono_nonneg_r; lia|].
  subst g. change 9007199254740992 with (2 ^ 53). rewrite <- Z.pow_add_r by lia. change W with (2 ^ 64). apply Z.pow_le_mono_r; lia.
Qed.

(* the magnitude conversion shared by both types: one rounding for a single word, three for two *)
Definition mag53 (h l : Z) : Z := if h =? 0 then round53 l else round53 (round53 h * W + round53 l).
Lemma mag53_ulp h l : 0 <= h < W -> 0 <= l < W -> P53 <= h * W + l -> Z.abs (mag53 h l - (h * W + l)) < ulp (h * W + l).
Proof.
  intros Hh Hl HV. unfold mag53. destruct (h =? 0) eqn:H0.
  - apply Z.eqb_eq in H0. subst h. replace (0 * W + l) with l in * by lia.
    destruct (round53_spec l HV) as (q & E & Q & B & _). rewrite E. pose proof (ulp_pos l HV). unfold ulp in *. lia.
  - apply Z.eqb_neq in H0. assert (H1 : 1 <= h) by lia.
    rewrite (ulp_two_words h l H1 Hl). destruct (round53_lo l Hl) as [Bb Bl]. remember (round53 l) as b.
    apply Z.abs_lt.
    destruct (Z_lt_le_dec h P53) as [SA|SB].
    + rewrite (round53_small h SA). destruct (Z.log2_spec h ltac:(lia)) as [A B]. pose proof (Z.log2_nonneg h) as N. rewrite Z.pow_succ_r in B by lia.
      rewrite Z.pow_add_r, Z.mul_comm by lia. change (2 ^ 12) with 4096.
      remember (2 ^ Z.log2 h) as p. assert (P1 : 1 <= p) by (assert (0 < p) by (subst p; apply Z.pow_pos_nonneg; lia); lia).
      destruct (round53_grid (12 + Z.log2 h) (4096 * p) (h * W + b)) as (q & E & Q & Bd & _); [lia|subst p; rewrite Z.pow_add_r by lia; reflexivity|nia|].
      rewrite E. apply (exact_high p h l b); assumption.
    + destruct (round53_spec h SB) as (qa & Ea & Qa & Ba & Ta). unfold P53 in SB.
      pose proof (log2_P53 h ltac:(unfold P53; lia)) as L53.
      replace (Z.log2 h + 12) with ((Z.log2 h - 52) + 64) by lia. rewrite Z.pow_add_r by lia. change (2 ^ 64) with W.
      assert (G2 : 2 <= 2 ^ (Z.log2 h - 52)) by (change 2 with (2 ^ 1) at 1; apply Z.pow_le_mono_r; lia).
      destruct (Z.log2_spec h ltac:(lia)) as [A B].
      assert (X : 2 ^ Z.log2 h = 2 ^ 52 * 2 ^ (Z.log2 h - 52)) by (rewrite <- Z.pow_add_r by lia; f_equal; lia).
      rewrite Z.pow_succ_r in B by lia. rewrite X in A, B.
      change (2 ^ 52) with 4503599627370496 in *. change (2 ^ 53) with 9007199254740992 in *.
      remember (2 ^ (Z.log2 h - 52)) as g. remember (round53 h) as a.
      destruct (Z.eq_dec qa 9007199254740992) as [QE|QN].
      * destruct (round53_grid ((Z.log2 h - 52) + 65) (2 * (g * W)) (a * W + b)) as (q & E & Q & Bd & _);
          [lia|subst g; rewrite Z.pow_add_r by lia; change (2 ^ 65) with (2 * W); ring|subst a qa; nia|].
        rewrite E. apply (next_binade g a h l b q); try assumption; lia.
      * destruct (round53_grid ((Z.log2 h - 52) + 64) (g * W) (a * W + b)) as (q & E & Q & Bd & Td); [lia|subst g; rewrite Z.pow_add_r by lia; reflexivity| |].
        { rewrite Ea, <- Z.mul_assoc. assert (2 * W <= g * W) by (apply Z.mul_le_mono_nonneg_r; lia). clear - Qa QN Bb H. nia. }
        rewrite E. apply (same_binade g qa a h l b q); try assumption; try lia; rewrite Ea; assumption.
Qed.

Theorem UAsFloat64_within_one_ulp u : wf u -> P53 <= uval u ->
  fst (UAsFloat64 u) = false /\ Z.abs (snd (UAsFloat64 u) - uval u) < 2 ^ (Z.log2 (uval u) - 52).
Proof.
  intros [Hh Hl] HV. replace (UAsFloat64 u) with (false, mag53 (hi u) (lo u)) by (unfold UAsFloat64, mag53; destruct (hi u =? 0); reflexivity).
  split; [reflexivity|apply mag53_ulp; assumption].
Qed.

(* Int128 converts a magnitude through mag53 and applies the sign: |v| itself, except for negative values with a non-trivial high word,
   where the one's complement |v| - 1 is converted - which is why the bound is "at most one ulp" and not "less than" *)
Lemma IAsFloat64_mag h l : 0 <= h < W -> 0 <= l < W ->
  exists h' l' d, 0 <= h' < W /\ 0 <= l' < W /\ (d = 0 \/ d = 1 /\ W - 1 <= h' * W + l') /\ Z.abs (sval (mk h l)) = h' * W + l' + d /\
    IAsFloat64 (mk h l) = (sval (mk h l) <? 0, if sval (mk h l) <? 0 then - mag53 h' l' else mag53 h' l').
Proof.
  intros Hh Hl. unfold IAsFloat64. cbn [hi lo].
  destruct (Z.eqb_spec h 0) as [H0|H0]; [|destruct ((h =? MAX64) && negb (l =? 0)) eqn:HM; [|destruct (Z.ltb_spec h SIGN) as [HS|HS]]].
  - exists 0, l, 0. rewrite sval_nonneg_word by (cbn [hi]; lia). unfold uval. cbn [hi lo]. subst h.
    rewrite (proj2 (Z.ltb_ge _ 0)), Z.abs_eq by lia. repeat split; auto; lia.
  - apply andb_prop in HM. destruct HM as [A B]. apply Z.eqb_eq in A. apply negb_true_iff, Z.eqb_neq in B. subst h.
    exists 0, (W - l), 0. rewrite sval_neg_word by (cbn [hi]; lia). unfold uval. cbn [hi lo].
    replace ((not64 l + 1) mod W) with (W - l) by (unfold not64; rewrite Z.mod_small; lia).
    rewrite (proj2 (Z.ltb_lt _ 0)), Z.abs_neq by lia. repeat split; auto; lia.
  - exists h, l, 0. rewrite sval_nonneg_word by (cbn [hi]; lia). unfold uval, mag53. cbn [hi lo].
    rewrite (proj2 (Z.ltb_ge _ 0)), Z.abs_eq, (proj2 (Z.eqb_neq h 0) H0) by nia. repeat split; auto; lia.
  - exists (MAX64 - h), (MAX64 - l), 1. rewrite sval_neg_word by (cbn [hi]; lia). unfold uval, not64. cbn [hi lo].
    rewrite (proj2 (Z.ltb_lt _ 0)), Z.abs_neq by lia. split; [lia|]. split; [lia|].
    destruct (Z.eq_dec h MAX64) as [->|NM].
    + (* then l = 0 and the value is -2^64 *)
      rewrite Z.eqb_refl in HM. cbn [andb] in HM. apply negb_false_iff, Z.eqb_eq in HM. subst l. repeat split; auto; lia.
    + unfold mag53. rewrite (proj2 (Z.eqb_neq (MAX64 - h) 0)) by lia. repeat split; auto; [right|]; lia.
Qed.

Theorem IAsFloat64_within_one_ulp i : wf i -> P53 <= Z.abs (sval i) ->
  fst (IAsFloat64 i) = (sval i <? 0) /\
  Z.abs (snd (IAsFloat64 i) - sval i) <= 2 ^ (Z.log2 (Z.abs (sval i)) - 52) /\
  (sval i < 0 -> snd (IAsFloat64 i) < 0) /\ (0 < sval i -> 0 < snd (IAsFloat64 i)).
Proof.
  destruct i as [h l]. intros [Hh Hl] HV. cbn [hi lo] in Hh, Hl. destruct (IAsFloat64_mag h l Hh Hl) as (h' & l' & d & Hh' & Hl' & Hd & EV & ->).
  cbn [fst snd]. set (v := sval (mk h l)) in *. set (x := h' * W + l') in *. fold (ulp (Z.abs v)).
  (* x >= 2^53, so mag53 is within less than an ulp of x; an ulp is at most 2^-52 of the value and grows with it *)
  assert (PX : P53 <= x) by (unfold P53 in *; lia).
  pose proof (mag53_ulp h' l' Hh' Hl' PX) as T. fold x in T. pose proof (ulp_mono x (Z.abs v) ltac:(lia)).
  pose proof (ulp_le_value _ HV). pose proof (ulp_le_value _ PX). split; [reflexivity|]. destruct (Z.ltb_spec v 0); lia.
Qed.
