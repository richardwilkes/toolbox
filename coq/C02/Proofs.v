From Coq Require Import ZArith List Bool Lia.
From Verif Require Import common.Word64 common.Word64Facts C01.Model C01.ProofsArith C01.ProofsBits C01.ProofsInt C03.Model C04.Model C04.Proofs C02.Model.
Import ListNotations.
Open Scope Z_scope.

(* C02.Model defines its own MaxI and MinI, equal to C01's *)
Lemma wf_MaxU : wf MaxU. Proof. unfold wf, MaxU; cbn [hi lo]; lia. Qed.
Lemma wf_MaxI : wf MaxI. Proof. unfold wf, MaxI; cbn [hi lo]; lia. Qed.
Lemma wf_MinI : wf MinI. Proof. exact ProofsInt.wf_MinI. Qed.
Lemma uval_MaxU : uval MaxU = P128 - 1. Proof. reflexivity. Qed.
Lemma sval_MaxI : sval MaxI = P127 - 1. Proof. reflexivity. Qed.
Lemma sval_MinI : sval MinI = - P127. Proof. reflexivity. Qed.

Theorem UFromBig_clamps z : wf (UFromBig z) /\ uval (UFromBig z) = Z.max 0 (Z.min z (P128 - 1)).
Proof.
  unfold UFromBig. destruct (Z.ltb_spec z 0); [split; [exact wf_zero|rewrite uval_zero; lia]|].
  destruct (Z.leb_spec P128 z); [split; [exact wf_MaxU|rewrite uval_MaxU; lia]|].
  split; [apply of_uval_wf|rewrite uval_of_uval, Z.mod_small; lia].
Qed.
Theorem IFromBig_clamps z : wf (IFromBig z) /\ sval (IFromBig z) = Z.max (- P127) (Z.min z (P127 - 1)).
Proof.
  unfold IFromBig. change (P128 / 2) with P127. destruct (Z.ltb_spec z (- P127)); [split; [exact wf_MinI|rewrite sval_MinI; lia]|].
  destruct (Z.leb_spec P127 z); [split; [exact wf_MaxI|rewrite sval_MaxI; lia]|].
  split; [apply of_uval_wf|rewrite sval_of_uval; lia].
Qed.
Theorem big_round_trip u : wf u -> UFromBig (UAsBig u) = u /\ IFromBig (IAsBig u) = u.
Proof.
  intro H. pose proof (uval_range u H). pose proof (sval_range u H). unfold UFromBig, IFromBig, UAsBig, IAsBig. change (P128 / 2) with P127. split.
  - rewrite (proj2 (Z.ltb_ge _ _)), (proj2 (Z.leb_gt _ _)) by lia. apply of_uval_uval, H.
  - rewrite (proj2 (Z.ltb_ge _ _)), (proj2 (Z.leb_gt _ _)) by lia. apply of_uval_sval, H.
Qed.

Theorem text_round_trip u : wf u -> UFromString (UString u) = Some u /\ IFromString (IString u) = Some u.
Proof.
  intro H. pose proof (uval_range u H) as Ru. pose proof (sval_range u H) as Rs. destruct (big_round_trip u H) as [Bu Bi].
  assert (P45 : 10 ^ 45 = 1000000000000000000000000000000000000000000000) by reflexivity.
  unfold UFromString, IFromString, UString, IString. split.
  - replace (udec (uval u)) with (sdec (uval u)) by (unfold sdec; rewrite (proj2 (Z.ltb_ge _ 0)) by lia; reflexivity).
    rewrite parse_print_signed by lia. f_equal. exact Bu.
  - rewrite parse_print_signed by lia. f_equal. exact Bi.
Qed.

Definition fval_trunc (neg : bool) (m e : Z) : Z := if neg then - trunc_abs m e else trunc_abs m e.

Lemma trunc_abs_up m e : 0 <= e -> trunc_abs m e = m * 2 ^ e.
Proof. intro H. unfold trunc_abs. rewrite (proj2 (Z.leb_le 0 e) H). reflexivity. Qed.
Lemma trunc_abs_down m e : e < 0 -> trunc_abs m e = m / 2 ^ (- e) /\ 2 <= 2 ^ (- e).
Proof.
  intro H. unfold trunc_abs. rewrite (proj2 (Z.leb_gt 0 e) H). split; [reflexivity|]. change 2 with (2 ^ 1) at 1. apply Z.pow_le_mono_r; lia.
Qed.
Lemma trunc_nonneg m e : 0 <= m -> 0 <= trunc_abs m e.
Proof.
  intro Hm. destruct (Z_lt_le_dec e 0) as [H|H]; [destruct (trunc_abs_down m e H) as [-> ?]; apply Z.div_pos; lia|].
  rewrite trunc_abs_up by exact H. apply Z.mul_nonneg_nonneg; [lia|apply Z.pow_nonneg; lia].
Qed.
Lemma trunc_abs_0 e : trunc_abs 0 e = 0.
Proof. unfold trunc_abs. destruct (Z.leb_spec 0 e); [reflexivity|]. apply Z.div_0_l, Z.pow_nonzero; lia. Qed.

(* abs_le and abs_lt compare the exact m * 2^e; a value that is not below a bound c >= m has a non-negative exponent, so it is an
   integer itself *)
Lemma abs_le_true m e c : abs_le m e c = true -> trunc_abs m e <= c.
Proof.
  unfold abs_le. destruct (Z_lt_le_dec e 0) as [H|H].
  - destruct (trunc_abs_down m e H) as [-> P]. rewrite (proj2 (Z.leb_gt 0 e) H), Z.leb_le. intro L. apply Z.div_le_upper_bound; lia.
  - rewrite trunc_abs_up, (proj2 (Z.leb_le 0 e) H), Z.leb_le by exact H. auto.
Qed.
Lemma abs_le_false m e c : 0 <= m <= c -> abs_le m e c = false -> 0 <= e /\ c < trunc_abs m e.
Proof.
  intros Hm. unfold abs_le. destruct (Z_lt_le_dec e 0) as [H|H].
  - destruct (trunc_abs_down m e H) as [_ P]. rewrite (proj2 (Z.leb_gt 0 e) H), Z.leb_gt. nia.
  - rewrite trunc_abs_up, (proj2 (Z.leb_le 0 e) H), Z.leb_gt by exact H. auto.
Qed.
(* abs_lt compares the exact m * 2^e with an integer, which is comparing its integer part *)
Lemma div_ltb m p c : 0 < p -> (m / p <? c) = (m <? c * p).
Proof.
  intro P. pose proof (Z.mul_div_le m p P). pose proof (Z.mul_succ_div_gt m p P).
  destruct (Z.ltb_spec m (c * p)), (Z.ltb_spec (m / p) c); try reflexivity; nia.
Qed.
Lemma abs_lt_spec m e c : abs_lt m e c = (trunc_abs m e <? c).
Proof. unfold abs_lt, trunc_abs. destruct (Z.leb_spec 0 e); [reflexivity|]. symmetry. apply div_ltb, Z.pow_pos_nonneg; lia. Qed.

(* for doubles below 2^128: p = 53, k = 75 *)
Lemma no_float_in_the_gap p k m e : 0 <= p -> 0 <= k -> 0 <= m < 2 ^ p -> 0 <= e ->
  2 ^ (p + k) - 2 ^ k < m * 2 ^ e -> 2 ^ (p + k) <= m * 2 ^ e.
Proof.
  intros Hp Hk Hm He. rewrite Z.pow_add_r by assumption. assert (0 < 2 ^ k) by (apply Z.pow_pos_nonneg; lia). destruct (Z_lt_le_dec e k).
  - assert (2 ^ e <= 2 ^ k) by (apply Z.pow_le_mono_r; lia). nia.
  - replace e with (e - k + k) by lia. rewrite Z.pow_add_r, Z.mul_assoc by lia. intro L.
    assert (X : (2 ^ p - 1) * 2 ^ k < m * 2 ^ (e - k) * 2 ^ k) by lia. apply Z.mul_lt_mono_pos_r in X; [|assumption].
    apply Z.mul_le_mono_nonneg_r; lia.
Qed.

Theorem Uint128FromFloat64_spec neg m e : 0 <= m < 2 ^ 53 ->
  wf (Uint128FromFloat64 (FFin neg m e)) /\ uval (Uint128FromFloat64 (FFin neg m e)) = Z.max 0 (Z.min (fval_trunc neg m e) (P128 - 1)).
Proof.
  intro Hm. pose proof (trunc_nonneg m e ltac:(lia)) as T. change (2 ^ 53) with 9007199254740992 in Hm.
  unfold Uint128FromFloat64, fval_trunc. destruct neg; cbn [orb]; [split; [exact wf_zero|rewrite uval_zero; lia]|].
  destruct (Z.eqb_spec m 0) as [->|M0]; [rewrite trunc_abs_0; split; [exact wf_zero|reflexivity]|].
  destruct (abs_le m e (W - 2048)) eqn:A.
  - apply abs_le_true in A. split; [unfold wf; cbn [hi lo]; lia|rewrite uval_mk0; lia].
  - destruct (abs_le m e (P128 - 2 ^ 75)) eqn:B; change (2 ^ 75) with 37778931862957161709568 in B.
    + apply abs_le_true in B. destruct (wf_halves (trunc_abs m e)) as [WF V]; [lia|]. split; [exact WF|]. rewrite V. lia.
    + apply abs_le_false in B; [|lia]. destruct B as [E B]. rewrite trunc_abs_up in * by exact E.
      pose proof (no_float_in_the_gap 53 75 m e ltac:(lia) ltac:(lia) Hm E B). split; [exact wf_MaxU|rewrite uval_MaxU]. change (2 ^ (53 + 75)) with P128 in *. lia.
Qed.

Theorem Int128FromFloat64_spec neg m e : 0 <= m < 2 ^ 53 ->
  wf (Int128FromFloat64 (FFin neg m e)) /\ sval (Int128FromFloat64 (FFin neg m e)) = Z.max (- P127) (Z.min (fval_trunc neg m e) (P127 - 1)).
Proof.
  intro Hm. pose proof (trunc_nonneg m e ltac:(lia)) as T. change (2 ^ 53) with 9007199254740992 in Hm. unfold Int128FromFloat64, fval_trunc. change (P128 / 2) with P127.
  destruct (Z.eqb_spec m 0) as [->|M0]; [rewrite trunc_abs_0; split; [exact wf_zero|rewrite sval_zero; destruct neg; lia]|].
  rewrite !abs_lt_spec. set (t := trunc_abs m e) in *.
  set (pos := if abs_le m e (W - 2048) then mk 0 t else if t <? P127 then mk (t / W) (t mod W) else MaxI).
  assert (P : wf pos /\ sval pos = Z.min t (P127 - 1)).
  { unfold pos. destruct (abs_le m e (W - 2048)) eqn:A.
    - apply abs_le_true in A. fold t in A. split; [unfold wf; cbn [hi lo]; lia|]. rewrite sval_nonneg_word, uval_mk0 by (cbn [hi]; lia). lia.
    - destruct (Z.ltb_spec t P127); [|split; [exact wf_MaxI|rewrite sval_MaxI; lia]].
      destruct (wf_halves t) as [WF V]; [lia|]. split; [exact WF|]. rewrite sval_nonneg_word, V; [lia|]. cbn [hi]. apply Z.div_lt_upper_bound; lia. }
  destruct P as (Wp & Sp). destruct neg; [|split; [exact Wp|lia]].
  destruct (Z.ltb_spec t P127); [|split; [exact wf_MinI|rewrite sval_MinI; lia]].
  destruct (Neg_spec pos Wp) as [Wn Sn]. split; [exact Wn|]. rewrite Sn, Sp, smod_small; lia.
Qed.

Theorem FromFloat64_specials :
  Uint128FromFloat64 FNaN = zero /\ Int128FromFloat64 FNaN = zero /\
  Uint128FromFloat64 (FInf false) = MaxU /\ Uint128FromFloat64 (FInf true) = zero /\ Int128FromFloat64 (FInf false) = MaxI /\ Int128FromFloat64 (FInf true) = MinI.
Proof. repeat split. Qed.

Lemma round53_small n : n < P53 -> round53 n = n.
Proof. intro H. unfold round53. apply Z.ltb_lt in H. rewrite H. reflexivity. Qed.

Theorem AsFloat64_exact_below_2_53 u : wf u ->
  (uval u < 2 ^ 53 -> UAsFloat64 u = (false, uval u)) /\ (- 2 ^ 53 < sval u < 2 ^ 53 -> IAsFloat64 u = (false, sval u) \/ (sval u < 0 /\ IAsFloat64 u = (true, sval u))).
Proof.
  destruct u as [h l]. unfold wf, UAsFloat64, IAsFloat64, uval, sval. cbn [hi lo]. intros [Hh Hl]. change (2 ^ 53) with P53. unfold P53 at 1 2 3. split.
  - intro H. assert (h = 0) by lia. subst. cbn [Z.eqb]. rewrite round53_small by (unfold P53; lia). f_equal; lia.
  - intro H. destruct (Z.leb_spec SIGN h) as [S|S]; unfold uval in *; cbn [hi lo] in *.
    + right. assert (h = MAX64) by lia. subst h. split; [lia|]. change (MAX64 =? 0) with false. rewrite Z.eqb_refl. cbn [andb].
      rewrite (proj2 (Z.eqb_neq l 0)) by lia. cbn [negb]. unfold not64. rewrite Z.mod_small, round53_small by (unfold P53; lia). f_equal; lia.
    + left. assert (h = 0) by lia. subst. cbn [Z.eqb]. rewrite round53_small by (unfold P53; lia). f_equal; lia.
Qed.

Theorem narrowing_spec u : wf u ->
  (UIsInt128 u = true <-> sval u = uval u) /\ (UIsUint64 u = true <-> UAsUint64 u = uval u) /\
  (IIsUint128 u = true <-> uval u = sval u) /\ (IIsInt64 u = true <-> IAsInt64 u = sval u) /\ (IIsUint64 u = true <-> IAsUint64 u = sval u).
Proof.
  destruct u as [h l]. unfold wf, UIsInt128, UIsUint64, UAsUint64, IIsUint128, IIsInt64, IAsInt64, IIsUint64, IAsUint64, sval, uval. cbn [hi lo]. intros [Hh Hl].
  split; [|split; [|split; [|split]]]; destruct (Z.leb_spec SIGN h), (Z.leb_spec SIGN l); lia.
Qed.
