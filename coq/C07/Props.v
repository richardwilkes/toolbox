(* C07 — property theorems and an example. Coordinates are rationals (every int and finite float64); th is any threshold; the tree shape
   (and therefore the insertion fuel and the halving) is irrelevant to every statement. spec_step is the plain list of live nodes:
   Insert appends a node with non-empty bounds, Remove drops one occurrence of the node, Reorganize keeps, Clear empties.
   ops_agree says that ids identify nodes (an operand with the id of a live node has that node's bounds). *)
From Coq Require Import QArith List Bool ZArith Permutation.
From Verif Require Import C18.Model C07.Model C07.Proofs.
Import ListNotations.

(* after any history the stored multiset and Size are those of the list specification, and the tree invariant holds *)
Theorem C07_history_stores_exactly_the_live_nodes : forall th isint ops, ops_agree [] ops ->
  let q := fold_left step ops (newqt th isint) in
  WF q /\ Permutation (qall q) (fold_left spec_step ops []) /\ count q = Z.of_nat (length (fold_left spec_step ops [])).
Proof. exact history_refines. Qed.
Print Assumptions C07_history_stores_exactly_the_live_nodes.

(* in every well-formed tree (hence after every history) each Find* query returns exactly the multiset a linear scan of the stored
   nodes would, with or without a matcher m, and each boolean query is true exactly when that scan finds something *)
Theorem C07_queries_are_linear_scans : forall q, WF q -> forall (m : obj -> bool),
  (forall px py, Permutation (find_point q px py m) (filter (hit_point px py m) (qall q)) /\ any_point q px py m = existsb (hit_point px py m) (qall q)) /\
  (forall r, Permutation (find_inter q r m) (filter (hit_inter r m) (qall q)) /\ any_inter q r m = existsb (hit_inter r m) (qall q)) /\
  (forall r, Permutation (find_contains q r m) (filter (hit_contains r m) (qall q)) /\ any_contains q r m = existsb (hit_contains r m) (qall q)) /\
  (forall r, Permutation (find_within q r m) (filter (hit_within r m) (qall q)) /\ any_within q r m = existsb (hit_within r m) (qall q)).
Proof. exact queries_are_linear_scans. Qed.
Print Assumptions C07_queries_are_linear_scans.

Theorem C07_boolean_query_iff_nonempty : forall (f : obj -> bool) l, existsb f l = negb (match filter f l with [] => true | _ => false end).
Proof. exact (@existsb_filter obj). Qed.
Print Assumptions C07_boolean_query_iff_nonempty.

(* one step: every operation preserves the invariant and refines the list step *)
Theorem C07_step_refines : forall q l o, WF q -> Permutation (qall q) l -> unique_ids l -> op_agrees l o ->
  WF (step q o) /\ Permutation (qall (step q o)) (spec_step l o) /\ unique_ids (spec_step l o).
Proof. exact step_refines. Qed.
Print Assumptions C07_step_refines.

(* non-vacuity: a fractional rectangle that the old integer Contains misplaced is found by a point query after a split *)
Example C07_ex_fractional :
  let mk i x y w h := mko i (mkr x y w h) in
  let ops := [OIns (mk 1%Z 0 0 10 10); OIns (mk 2%Z (1#5) (1#5) (1#2) (1#2)); OIns (mk 3%Z 1 1 1 1); OIns (mk 4%Z 2 2 1 1); OIns (mk 5%Z 3 3 1 1); OReorg; OIns (mk 6%Z (1#4) (1#4) (1#8) (1#8))] in
  let q := fold_left step ops (newqt 4%Z false) in
  map oid (find_point q (3#10) (3#10) (fun _ => true)) = [1; 2; 6]%Z.
Proof. vm_compute. reflexivity. Qed.
