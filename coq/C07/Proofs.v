(* C07 — every stored object lies inside the rectangle of each tree node above it (Inv): pruning loses nothing, and the
   operations have to keep Inv and say where the objects go *)
From Coq Require Import QArith List Bool ZArith Lia Lqa Permutation.
From Verif Require Import C18.Model C18.Proofs C07.Model.
Import ListNotations.
Open Scope Q_scope.
Opaque FUEL.

Lemma prune_point r a px py : contains r a = true -> pt_in px py a = true -> pt_in px py r = true.
Proof. intros H. apply contains_spec in H. destruct H as [_ H]. apply H. Qed.
Lemma prune_inter r a q : contains r a = true -> intersects a q = true -> intersects r q = true.
Proof. rewrite contains_spec, !intersects_spec. intros [_ H] (px & py & Ia & Iq). exists px, py. auto. Qed.
Lemma prune_contains r a q : contains r a = true -> contains a q = true -> intersects r q = true.
Proof. intros H H'. exact (prune_inter r a q H (proj1 (contains_intersects a q H'))). Qed.
Lemma prune_within r a q : contains r a = true -> contains q a = true -> intersects r q = true.
Proof. intros H H'. exact (prune_inter r a q H (proj2 (contains_intersects q a H'))). Qed.

Definition inside (r : rect) (o : obj) : Prop := contains r (orect o) = true.
Fixpoint Inv (n : qnode) : Prop :=
  match n with
  | Leaf r c => Forall (inside r) c
  | Split r c k0 k1 k2 k3 => Forall (inside r) (c ++ all k0 ++ all k1 ++ all k2 ++ all k3) /\ Inv k0 /\ Inv k1 /\ Inv k2 /\ Inv k3
  end.
Lemma Inv_all n : Inv n -> Forall (inside (nrect n)) (all n).
Proof. destruct n; cbn; [auto | intros [H _]; exact H]. Qed.

Lemma existsb_filter {A} (f : A -> bool) l : existsb f l = negb (match filter f l with [] => true | _ => false end).
Proof. induction l as [|x l IH]; [reflexivity|]. cbn. destruct (f x); [reflexivity|exact IH]. Qed.
Section Query.
  Variables (prune : rect -> bool) (hit : obj -> bool).
  Hypothesis sound : forall r o, inside r o -> hit o = true -> prune r = true.

  Lemma filter_nothing r l : prune r = false -> Forall (inside r) l -> filter hit l = [].
  Proof.
    intros Hp F. induction F as [|o l Ho F IH]; [reflexivity|]. cbn [filter].
    destruct (hit o) eqn:E; [|exact IH]. rewrite (sound r o Ho E) in Hp. discriminate.
  Qed.
  Lemma exists_nothing r l : prune r = false -> Forall (inside r) l -> existsb hit l = false.
  Proof. intros Hp F. rewrite existsb_filter, (filter_nothing r l Hp F). reflexivity. Qed.

  Lemma find_filter n : Inv n -> find prune hit n = filter hit (all n).
  Proof.
    induction n as [r c | r c k0 IH0 k1 IH1 k2 IH2 k3 IH3]; intro I; cbn [find all].
    - destruct (prune r) eqn:E; [reflexivity|]. symmetry. eapply filter_nothing; eauto.
    - destruct I as (F & I0 & I1 & I2 & I3). destruct (prune r) eqn:E.
      + rewrite !filter_app, IH0, IH1, IH2, IH3 by assumption. reflexivity.
      + symmetry. eapply filter_nothing; eauto.
  Qed.
  Lemma any_exists n : Inv n -> any prune hit n = existsb hit (all n).
  Proof.
    induction n as [r c | r c k0 IH0 k1 IH1 k2 IH2 k3 IH3]; intro I; cbn [any all].
    - destruct (prune r) eqn:E; [reflexivity|]. cbn [andb]. symmetry. eapply exists_nothing; eauto.
    - destruct I as (F & I0 & I1 & I2 & I3). destruct (prune r) eqn:E; cbn [andb].
      + rewrite !existsb_app, IH0, IH1, IH2, IH3 by assumption. rewrite !orb_assoc. reflexivity.
      + symmetry. eapply exists_nothing; eauto.
  Qed.
End Query.

Definition extends (n' n : qnode) (xs : list obj) : Prop :=
  Inv n' /\ Permutation (all n') (all n ++ xs) /\ nrect n' = nrect n.
Lemma extends_refl n : Inv n -> extends n n [].
Proof. intro I. split; [exact I|]. rewrite app_nil_r. split; reflexivity. Qed.
Lemma extends_trans n2 n1 n xs ys : extends n1 n xs -> extends n2 n1 ys -> extends n2 n (xs ++ ys).
Proof. intros (_ & P1 & R1) (I2 & P2 & R2). split; [exact I2|]. split; [rewrite P2, P1, app_assoc; reflexivity | congruence]. Qed.

(* a list inside all (Split ..) is reached by skipping what stands before it (perm_pre), then what stands after it (perm_tail) *)
Lemma perm_pre (L K K' x : list obj) : Permutation K (K' ++ x) -> Permutation (L ++ K) ((L ++ K') ++ x).
Proof. intros ->. rewrite app_assoc. reflexivity. Qed.
Lemma perm_tail (R K K' x : list obj) : Permutation K (K' ++ x) -> Permutation (K ++ R) ((K' ++ R) ++ x).
Proof. intros ->. rewrite <- !app_assoc. apply Permutation_app_head, Permutation_app_comm. Qed.
Lemma Forall_shrink {A} (P : A -> Prop) l l' xs : Permutation l (l' ++ xs) -> Forall P l -> Forall P l'.
Proof. intros Pm F. rewrite Pm in F. apply Forall_app in F. apply F. Qed.

(* with valid contents and children, what is left to check of a Split is where the objects went *)
Lemma Split_grows r c k0 k1 k2 k3 c' k0' k1' k2' k3' xs :
  Inv (Split r c k0 k1 k2 k3) -> Forall (inside r) xs -> Inv k0' -> Inv k1' -> Inv k2' -> Inv k3' ->
  Permutation (all (Split r c' k0' k1' k2' k3')) (all (Split r c k0 k1 k2 k3) ++ xs) ->
  extends (Split r c' k0' k1' k2' k3') (Split r c k0 k1 k2 k3) xs.
Proof.
  intros [F _] Fx A0 A1 A2 A3 P. split; [|split; [exact P | reflexivity]].
  repeat split; try assumption. cbn [all] in P. rewrite P. apply Forall_app. split; assumption.
Qed.

Lemma add_here_spec n o : Inv n -> inside (nrect n) o -> extends (add_here n o) n [o].
Proof.
  intros I Ho. assert (Fo : Forall (inside (nrect n)) [o]) by (constructor; [exact Ho | constructor]).
  destruct n as [r c | r c k0 k1 k2 k3]; cbn [add_here nrect] in *.
  - split; [apply Forall_app; split; assumption | split; reflexivity].
  - apply Split_grows; try assumption; try apply I. apply perm_tail. reflexivity.
Qed.

Definition ins_ok (fuel : nat) : Prop := forall isint th n o, Inv n -> inside (nrect n) o -> extends (node_insert fuel isint th n o) n [o].

Lemma fold_insert_ok f isint th : ins_ok f -> forall c n, Inv n -> Forall (inside (nrect n)) c ->
  extends (fold_left (fun acc x => node_insert f isint th acc x) c n) n c.
Proof.
  intros IH c. induction c as [|x c IHc]; intros n I F; cbn [fold_left]; [apply extends_refl, I|].
  inversion F as [|? ? Hx Fc]; subst. pose proof (IH isint th n x I Hx) as E1. apply (extends_trans _ _ n [x] c E1).
  destruct E1 as (I1 & _ & R1). apply IHc; [exact I1 | rewrite R1; exact Fc].
Qed.

Theorem node_insert_ok : forall fuel, ins_ok fuel.
Proof.
  induction fuel as [|f IH]; intros isint th n o I Ho; cbn [node_insert]; [apply add_here_spec; assumption|].
  (* the (possibly split) node *)
  set (n1 := match n with
             | Leaf r c => if (th <=? length c)%nat then
                 let '(r0, r1, r2, r3) := split_rects isint r in
                 fold_left (fun acc x => node_insert f isint th acc x) c (Split r [] (Leaf r0 []) (Leaf r1 []) (Leaf r2 []) (Leaf r3 []))
               else n
             | _ => n end).
  assert (H1 : extends n1 n []).
  { unfold n1. destruct n as [r c | r c k0 k1 k2 k3]; [|apply extends_refl, I].
    destruct (th <=? length c)%nat; [|apply extends_refl, I]. destruct (split_rects isint r) as [[[r0 r1] r2] r3].
    destruct (fold_insert_ok f isint th IH c (Split r [] (Leaf r0 []) (Leaf r1 []) (Leaf r2 []) (Leaf r3 []))) as (A & B & C);
      [repeat split; constructor | exact I |]. split; [exact A|]. split; [rewrite B; cbn; rewrite app_nil_r; reflexivity | exact C]. }
  apply (extends_trans _ n1 n [] [o] H1). destruct H1 as (I1 & _ & R1). rewrite <- R1 in Ho. clearbody n1. clear I R1 n.
  destruct n1 as [r c | r c k0 k1 k2 k3]; [apply (add_here_spec (Leaf r c)); assumption|].
  pose proof I1 as (_ & I0 & I1' & I2 & I3). cbn [nrect] in Ho.
  assert (Fo : Forall (inside r) [o]) by (constructor; [exact Ho | constructor]).
  destruct (contains (nrect k0) (orect o)) eqn:E0; [|destruct (contains (nrect k1) (orect o)) eqn:E1; [|destruct (contains (nrect k2) (orect o)) eqn:E2; [|destruct (contains (nrect k3) (orect o)) eqn:E3]]].
  - destruct (IH isint th k0 o I0 E0) as (A & B & _). apply Split_grows; try assumption. apply perm_pre, perm_tail, B.
  - destruct (IH isint th k1 o I1' E1) as (A & B & _). apply Split_grows; try assumption. apply perm_pre, perm_pre, perm_tail, B.
  - destruct (IH isint th k2 o I2 E2) as (A & B & _). apply Split_grows; try assumption. apply perm_pre, perm_pre, perm_pre, perm_tail, B.
  - destruct (IH isint th k3 o I3 E3) as (A & B & _). apply Split_grows; try assumption. apply perm_pre, perm_pre, perm_pre, perm_pre, B.
  - apply (add_here_spec (Split r c k0 k1 k2 k3)); assumption.
Qed.

(* removal is specified by what it returns: the list or tree without one object carrying the id, or nothing when no object does *)
Lemma remove_first_spec c id : match remove_first c id with
  | Some c' => exists x, oid x = id /\ Permutation c (c' ++ [x])
  | None => forall x, List.In x c -> oid x <> id end.
Proof.
  induction c as [|y c IH]; cbn [remove_first]; [intros x []|].
  destruct (Z.eqb_spec (oid y) id) as [E|E]; [exists y; split; [exact E | apply Permutation_cons_append]|].
  destruct (remove_first c id) as [c'|].
  - destruct IH as (x & Ex & Px). exists x. split; [exact Ex | rewrite Px; reflexivity].
  - intros x [<-|Hx]; [exact E | exact (IH x Hx)].
Qed.

(* an object with the id of a stored object is that object ("ids identify nodes") *)
Definition agrees (l : list obj) (o : obj) : Prop := forall x, List.In x l -> oid x = oid o -> orect x = orect o.

Lemma node_remove_spec : forall n o, Inv n -> match node_remove n o with
  | Some n' => Inv n' /\ exists x, oid x = oid o /\ Permutation (all n) (all n' ++ [x])
  | None => agrees (all n) o -> forall x, List.In x (all n) -> oid x <> oid o end.
Proof.
  induction n as [r c | r c k0 IH0 k1 IH1 k2 IH2 k3 IH3]; intros o I; cbn [node_remove]; pose proof (remove_first_spec c (oid o)) as R.
  - destruct (remove_first c (oid o)) as [c'|]; [|intros _; exact R].
    destruct R as (x & Ex & Px). split; [exact (Forall_shrink _ _ _ _ Px I) | exists x; split; assumption].
  - pose proof I as (F & I0 & I1 & I2 & I3).
    assert (S : forall c' k0' k1' k2' k3' x, oid x = oid o -> Inv k0' -> Inv k1' -> Inv k2' -> Inv k3' ->
      Permutation (all (Split r c k0 k1 k2 k3)) (all (Split r c' k0' k1' k2' k3') ++ [x]) ->
      Inv (Split r c' k0' k1' k2' k3') /\ exists x, oid x = oid o /\ Permutation (all (Split r c k0 k1 k2 k3)) (all (Split r c' k0' k1' k2' k3') ++ [x])).
    { intros c' k0' k1' k2' k3' x Ex A0 A1 A2 A3 P. split; [|exists x; split; assumption].
      repeat split; try assumption. exact (Forall_shrink _ _ _ _ P F). }
    destruct (remove_first c (oid o)) as [c'|].
    { destruct R as (x & Ex & Px). apply (S _ _ _ _ _ x); try assumption. apply perm_tail, Px. }
    specialize (IH0 o I0). specialize (IH1 o I1). specialize (IH2 o I2). specialize (IH3 o I3).
    destruct (contains r (orect o)) eqn:C.
    + destruct (node_remove k0 o) as [k|]; [|destruct (node_remove k1 o) as [k|]; [|destruct (node_remove k2 o) as [k|]; [|destruct (node_remove k3 o) as [k|]]]].
      * destruct IH0 as (A & x & Ex & B). apply (S _ _ _ _ _ x); try assumption. apply perm_pre, perm_tail, B.
      * destruct IH1 as (A & x & Ex & B). apply (S _ _ _ _ _ x); try assumption. apply perm_pre, perm_pre, perm_tail, B.
      * destruct IH2 as (A & x & Ex & B). apply (S _ _ _ _ _ x); try assumption. apply perm_pre, perm_pre, perm_pre, perm_tail, B.
      * destruct IH3 as (A & x & Ex & B). apply (S _ _ _ _ _ x); try assumption. apply perm_pre, perm_pre, perm_pre, perm_pre, B.
      * intros Ag x Hx. cbn [all] in Ag, Hx. rewrite !in_app_iff in Hx. destruct Hx as [Hx|[Hx|[Hx|[Hx|Hx]]]];
          [exact (R x Hx) | apply IH0 | apply IH1 | apply IH2 | apply IH3]; try exact Hx;
          intros y Hy; apply Ag; rewrite !in_app_iff; tauto.
    + (* the object with this id and these bounds would lie inside r *)
      intros Ag x Hx E. rewrite Forall_forall in F. pose proof (F x Hx) as Hin. unfold inside in Hin. rewrite (Ag x Hx E) in Hin. congruence.
Qed.

(* Reorganize: the union of all bounds contains every non-empty bound *)
Lemma fold_union_keeps l : forall acc x, contains acc x = true -> contains (fold_left (fun a o => union a (orect o)) l acc) x = true.
Proof. induction l as [|o l IH]; intros acc x H; cbn [fold_left]; [exact H|]. apply IH. apply union_keeps. exact H. Qed.
Lemma fold_union_covers l : forall acc o, List.In o l -> empty (orect o) = false -> contains (fold_left (fun a o => union a (orect o)) l acc) (orect o) = true.
Proof.
  induction l as [|y l IH]; intros acc o Hin Hne; [destruct Hin|]. cbn [fold_left]. destruct Hin as [<-|Hin]; [|apply IH; assumption].
  apply fold_union_keeps. destruct (union_covers acc (orect y)) as [_ U]. eapply contains_trans; [apply U; exact Hne | apply contains_refl; exact Hne].
Qed.

Definition WF (q : qt) : Prop :=
  (forall n, root q = Some n -> Inv n) /\ Forall (fun o => empty (orect o) = false) (qall q) /\ count q = Z.of_nat (length (qall q)).
Definition spec_step (l : list obj) (o : op) : list obj :=
  match o with
  | OIns x => if empty (orect x) then l else l ++ [x]
  | ORem x => match remove_first l (oid x) with Some l' => l' | None => l end
  | OReorg => l
  | OClear => []
  end.
Definition op_agrees (l : list obj) (o : op) : Prop := match o with OIns x | ORem x => agrees l x | _ => True end.

Lemma WF_grow q q' xs : WF q -> (forall n, root q' = Some n -> Inv n) -> Permutation (qall q') (qall q ++ xs) ->
  Forall (fun o => empty (orect o) = false) xs -> count q' = (count q + Z.of_nat (length xs))%Z -> WF q'.
Proof.
  intros (_ & WN & WC) I P F C. split; [exact I|]. split; [rewrite P; apply Forall_app; split; assumption|].
  rewrite C, WC, (Permutation_length P), app_length. lia.
Qed.
Lemma WF_shrink q q' xs : WF q -> (forall n, root q' = Some n -> Inv n) -> Permutation (qall q) (qall q' ++ xs) ->
  count q' = (count q - Z.of_nat (length xs))%Z -> WF q'.
Proof.
  intros (_ & WN & WC) I P C. split; [exact I|]. split; [exact (Forall_shrink _ _ _ _ P WN)|].
  rewrite C, WC, (Permutation_length P), app_length. lia.
Qed.

Lemma WF_same q q' : WF q -> (forall n, root q' = Some n -> Inv n) -> Permutation (qall q') (qall q) -> count q' = count q -> WF q'.
Proof. intros (_ & WN & WC) I P C. split; [exact I|]. split; [rewrite P; exact WN | rewrite C, WC, (Permutation_length P); reflexivity]. Qed.
Lemma WF_new th isint : WF (newqt th isint).
Proof. unfold WF, newqt, qall. cbn. split; [intros n H; discriminate|]. split; [constructor|reflexivity]. Qed.

Lemma reorganize_ok q : WF q -> WF (reorganize q) /\ Permutation (qall (reorganize q)) (qall q).
Proof.
  intros W. pose proof W as (_ & WN & _). unfold reorganize. destruct (qall q) as [|o0 a] eqn:E.
  - split; [|reflexivity]. apply (WF_same q _ W); [intros n [=] | rewrite E; reflexivity | reflexivity].
  - set (r := fold_left (fun acc o => union acc (orect o)) (o0 :: a) zero_rect).
    assert (Fin : Forall (inside r) (o0 :: a)).
    { apply Forall_forall. intros o Ho. apply fold_union_covers; [exact Ho|]. rewrite Forall_forall in WN. apply WN, Ho. }
    pose proof (fold_insert_ok FUEL (isintq q) (threshold q) (node_insert_ok FUEL) (o0 :: a) (Leaf r []) ltac:(constructor) Fin) as G.
    set (rt := fold_left (fun acc x => node_insert FUEL (isintq q) (threshold q) acc x) (o0 :: a) (Leaf r [])) in *. clearbody rt.
    destruct G as (A & B & _). cbn [all app] in B. split; [|exact B].
    apply (WF_same q _ W); [intros n [= <-]; exact A | rewrite E; exact B | reflexivity].
Qed.
Lemma insert_ok q x : WF q -> empty (orect x) = false -> WF (insert q x) /\ Permutation (qall (insert q x)) (qall q ++ [x]).
Proof.
  intros W Ee. pose proof W as (WI & _ & _). assert (Fx : Forall (fun o => empty (orect o) = false) [x]) by (constructor; [exact Ee | constructor]).
  unfold insert. rewrite Ee. cbv zeta. destruct (match root q with Some n => contains (nrect n) (orect x) | None => false end) eqn:Ein.
  - destruct (root q) as [n|] eqn:Er; [|discriminate]. destruct (node_insert_ok FUEL (isintq q) (threshold q) n x (WI n eq_refl) Ein) as (A & B & _).
    assert (P : Permutation (outside q ++ all (node_insert FUEL (isintq q) (threshold q) n x)) (qall q ++ [x])) by (unfold qall; rewrite Er; apply perm_pre, B).
    split; [|exact P]. apply (WF_grow q _ [x] W); [intros n' [= <-]; exact A | exact P | exact Fx | reflexivity].
  - (* beside it, and then perhaps everything into a new tree *)
    set (q2 := mkqt (root q) (outside q ++ [x]) (count q + 1)%Z (thresh q) (isintq q)).
    assert (P : Permutation (qall q2) (qall q ++ [x])) by (apply perm_tail; reflexivity).
    assert (W2 : WF q2) by (apply (WF_grow q _ [x] W); [exact WI | exact P | exact Fx | reflexivity]).
    destruct (threshold q <? length (outside q2))%nat; [|split; assumption].
    destruct (reorganize_ok q2 W2) as [WR PR]. split; [exact WR | rewrite PR; exact P].
Qed.

Definition unique_ids (l : list obj) : Prop := forall x y, List.In x l -> List.In y l -> oid x = oid y -> x = y.
Lemma obj_eq x y : oid x = oid y -> orect x = orect y -> x = y.
Proof. destruct x, y; cbn; intros -> ->; reflexivity. Qed.
Lemma unique_ids_perm l l' xs : Permutation l (l' ++ xs) -> unique_ids l -> unique_ids l'.
Proof. intros P U a b Ha Hb. apply U; rewrite P; apply in_or_app; left; assumption. Qed.
Lemma unique_ids_snoc l x : unique_ids l -> agrees l x -> unique_ids (l ++ [x]).
Proof.
  intros U Ag a b Ha Hb Eab. apply in_app_or in Ha, Hb. destruct Ha as [Ha|[<-|[]]], Hb as [Hb|[<-|[]]]; auto.
  - apply obj_eq; [exact Eab | apply Ag; auto].
  - symmetry. apply obj_eq; [symmetry; exact Eab | apply Ag; auto].
Qed.

Lemma remove_ok q x : WF q -> agrees (qall q) x ->
  (WF (remove q x) /\ exists y, oid y = oid x /\ Permutation (qall q) (qall (remove q x) ++ [y])) \/
  (remove q x = q /\ forall z, List.In z (qall q) -> oid z <> oid x).
Proof.
  intros W Ag. pose proof W as (WI & _ & _). unfold remove. pose proof (remove_first_spec (outside q) (oid x)) as Ro.
  destruct (remove_first (outside q) (oid x)) as [out'|].
  - left. destruct Ro as (y & Ey & Py).
    assert (P : Permutation (qall q) (qall (mkqt (root q) out' (count q - 1)%Z (thresh q) (isintq q)) ++ [y])) by apply perm_tail, Py.
    split; [apply (WF_shrink q _ [y] W); [exact WI | exact P | reflexivity] | eauto].
  - unfold qall in *. destruct (root q) as [n|] eqn:Er;
      [pose proof (node_remove_spec n x (WI n eq_refl)) as Rn; destruct (node_remove n x) as [n'|]|].
    + left. destruct Rn as (A & y & Ey & B).
      assert (P : Permutation (outside q ++ all n) (qall (mkqt (Some n') (outside q) (count q - 1)%Z (thresh q) (isintq q)) ++ [y])) by apply perm_pre, B.
      split; [apply (WF_shrink q _ [y] W); [intros n2 [= <-]; exact A | unfold qall; rewrite Er; exact P | reflexivity] | eauto].
    + right. split; [reflexivity|]. intros z Hz. apply in_app_or in Hz. destruct Hz as [Hz|Hz]; [apply Ro, Hz|].
      apply Rn; [|exact Hz]. intros y Hy. apply Ag, in_or_app. right. exact Hy.
    + right. split; [reflexivity|]. intros z Hz. rewrite app_nil_r in Hz. apply Ro, Hz.
Qed.
Lemma remove_first_perm l id y l0 : unique_ids l -> oid y = id -> Permutation l (l0 ++ [y]) ->
  exists l', remove_first l id = Some l' /\ Permutation l0 l' /\ unique_ids l'.
Proof.
  intros U Ey P. assert (Hy : List.In y l) by (rewrite P; apply in_or_app; right; left; reflexivity).
  pose proof (remove_first_spec l id) as R. destruct (remove_first l id) as [l'|]; [|destruct (R y Hy Ey)].
  destruct R as (y' & Ey' & P'). exists l'. split; [reflexivity|].
  assert (y' = y) as -> by (apply U; [rewrite P'; apply in_or_app; right; left; reflexivity | exact Hy | congruence]).
  split; [apply (Permutation_app_inv_r [y]); rewrite <- P, <- P'; reflexivity | exact (unique_ids_perm _ _ _ P' U)].
Qed.
Lemma remove_first_absent l id : (forall z, List.In z l -> oid z <> id) -> remove_first l id = None.
Proof.
  intros H. pose proof (remove_first_spec l id) as R. destruct (remove_first l id); [|reflexivity]. destruct R as (y & Ey & P).
  destruct (H y); [rewrite P; apply in_or_app; right; left; reflexivity | exact Ey].
Qed.

Theorem step_refines q l o : WF q -> Permutation (qall q) l -> unique_ids l -> op_agrees l o ->
  WF (step q o) /\ Permutation (qall (step q o)) (spec_step l o) /\ unique_ids (spec_step l o).
Proof.
  intros W P U Ag. destruct o as [x|x| |]; cbn [step spec_step op_agrees] in *.
  - destruct (empty (orect x)) eqn:Ee; [unfold insert; rewrite Ee; auto|]. destruct (insert_ok q x W Ee) as [W' P'].
    split; [exact W'|]. split; [rewrite P', P; reflexivity | apply unique_ids_snoc; assumption].
  - destruct (remove_ok q x W) as [(W' & y & Ey & Py) | [-> Hno]]; [intros z Hz; apply Ag; rewrite <- P; exact Hz | |].
    + rewrite P in Py. destruct (remove_first_perm l (oid x) y _ U Ey Py) as (l' & -> & Pl & Ul). auto.
    + rewrite remove_first_absent by (intros z Hz; apply Hno; rewrite P; exact Hz). auto.
  - destruct (reorganize_ok q W) as [WR PR]. split; [exact WR|]. split; [rewrite PR; exact P | exact U].
  - split; [exact (WF_new (thresh q) (isintq q)) | split; [reflexivity | intros a b []]].
Qed.

Theorem query_spec q prune hit : WF q -> (forall r o, inside r o -> hit o = true -> prune r = true) ->
  Permutation (query q prune hit) (filter hit (qall q)) /\ query_any q prune hit = existsb hit (qall q).
Proof.
  intros (WI & _ & _) S. unfold query, query_any, qall. destruct (root q) as [n|] eqn:Er.
  - rewrite (find_filter prune hit S n (WI n eq_refl)), (any_exists prune hit S n (WI n eq_refl)). split.
    + rewrite filter_app. apply Permutation_app_comm.
    + rewrite existsb_app. apply orb_comm.
  - cbn [app]. rewrite !app_nil_r. split; reflexivity.
Qed.

(* each query prunes with a test on the node's rectangle that the hit test on an object inside the node implies *)
Lemma sound_hit (test prune : rect -> bool) (m : obj -> bool) :
  (forall r a, contains r a = true -> test a = true -> prune r = true) ->
  forall r o, inside r o -> test (orect o) && m o = true -> prune r = true.
Proof. intros H r o Hi E. apply andb_prop in E. exact (H r (orect o) Hi (proj1 E)). Qed.

Theorem queries_are_linear_scans q : WF q -> forall (m : obj -> bool),
  (forall px py, Permutation (find_point q px py m) (filter (hit_point px py m) (qall q)) /\ any_point q px py m = existsb (hit_point px py m) (qall q)) /\
  (forall r, Permutation (find_inter q r m) (filter (hit_inter r m) (qall q)) /\ any_inter q r m = existsb (hit_inter r m) (qall q)) /\
  (forall r, Permutation (find_contains q r m) (filter (hit_contains r m) (qall q)) /\ any_contains q r m = existsb (hit_contains r m) (qall q)) /\
  (forall r, Permutation (find_within q r m) (filter (hit_within r m) (qall q)) /\ any_within q r m = existsb (hit_within r m) (qall q)).
Proof.
  intros W m. split; [|split; [|split]].
  - intros px py. apply (query_spec q _ _ W), (sound_hit (pt_in px py)). intros r a. apply prune_point.
  - intros r. apply (query_spec q _ _ W), (sound_hit (fun a => intersects a r)). intros r0 a. apply prune_inter.
  - intros r. apply (query_spec q _ _ W), (sound_hit (fun a => contains a r)). intros r0 a. apply prune_contains.
  - intros r. apply (query_spec q _ _ W), (sound_hit (contains r)). intros r0 a. apply prune_within.
Qed.

Fixpoint ops_agree (l : list obj) (ops : list op) : Prop :=
  match ops with [] => True | o :: r => op_agrees l o /\ ops_agree (spec_step l o) r end.

Theorem history_refines_from : forall ops q l, WF q -> Permutation (qall q) l -> unique_ids l -> ops_agree l ops ->
  WF (fold_left step ops q) /\ Permutation (qall (fold_left step ops q)) (fold_left spec_step ops l).
Proof.
  induction ops as [|o ops IH]; intros q l W P U A; cbn [fold_left]; [auto|]. destruct A as [A1 A2].
  destruct (step_refines q l o W P U A1) as (W' & P' & U'). apply IH; assumption.
Qed.
Theorem history_refines th isint ops : ops_agree [] ops ->
  let q := fold_left step ops (newqt th isint) in
  WF q /\ Permutation (qall q) (fold_left spec_step ops []) /\ count q = Z.of_nat (length (fold_left spec_step ops [])).
Proof.
  intro A. cbv zeta. destruct (history_refines_from ops (newqt th isint) [] (WF_new th isint) (Permutation_refl _) ltac:(intros a b []) A) as [W P].
  split; [exact W|]. split; [exact P|]. destruct W as (_ & _ & C). rewrite C. f_equal. apply Permutation_length. exact P.
Qed.
