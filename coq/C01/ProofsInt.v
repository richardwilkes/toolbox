(* C01 — Int128: two's-complement reading of the same words *)
From Coq Require Import ZArith List Bool Lia.
From Verif Require Import common.Word64 common.Word64Facts C01.Model C01.ProofsArith.
Open Scope Z_scope.

(* reduce into [-2^127, 2^127) *)
Definition smod (v : Z) : Z := (v + P127) mod P128 - P127.
Definition int64 (n : Z) : Prop := - SIGN <= n < SIGN.

Lemma sval_zero : sval zero = 0. Proof. reflexivity. Qed.
Lemma wf_MinI : wf MinI. Proof. unfold wf, MinI; cbn [hi lo]; lia. Qed.
Lemma sval_nonneg_word u : hi u < SIGN -> sval u = uval u.
Proof. intro H. unfold sval. rewrite (proj2 (Z.leb_gt SIGN (hi u))) by exact H. reflexivity. Qed.
Lemma sval_neg_word u : SIGN <= hi u -> sval u = uval u - P128.
Proof. intro H. unfold sval. rewrite (proj2 (Z.leb_le SIGN (hi u))) by exact H. reflexivity. Qed.
Lemma sval_range u : wf u -> - P127 <= sval u < P127.
Proof. intros [? ?]. unfold sval, uval. destruct (Z.leb_spec SIGN (hi u)); lia. Qed.
Lemma uval_sval u : wf u -> uval u = sval u mod P128.
Proof.
  intro H. pose proof (uval_range u H). unfold sval. destruct (SIGN <=? hi u).
  - apply mod128_unique; [assumption | exists 1; lia].
  - symmetry. apply Z.mod_small. assumption.
Qed.
(* smod sees only the class modulo 2^128, and is the identity on the signed range *)
Lemma smod_eqm v v' : v mod P128 = v' mod P128 -> smod v = smod v'.
Proof. intro E. unfold smod. rewrite <- (Z.add_mod_idemp_l v), E, Z.add_mod_idemp_l by lia. reflexivity. Qed.
Lemma smod_mod v : smod (v mod P128) = smod v.
Proof. apply smod_eqm, Z.mod_mod. lia. Qed.
Lemma smod_small v : - P127 <= v < P127 -> smod v = v.
Proof. intro H. unfold smod. rewrite Z.mod_small; lia. Qed.
Lemma sval_smod u : wf u -> sval u = smod (uval u).
Proof. intro H. rewrite (uval_sval u H), smod_mod, smod_small; [reflexivity | apply sval_range, H]. Qed.
Lemma lo_sval q : wf q -> lo q = sval q mod W.
Proof.
  intros [[H1 H2] [H3 H4]]. unfold sval, uval. destruct (SIGN <=? hi q); [apply Z.mod_unique with (q := hi q - W)|apply Z.mod_unique with (q := hi q)]; lia.
Qed.
Lemma sval_inj u n : wf u -> wf n -> sval u = sval n -> u = n.
Proof. intros Hu Hn E. apply uval_inj; auto. rewrite (uval_sval u), (uval_sval n), E by assumption. reflexivity. Qed.

Lemma sval_of_uval v : - P127 <= v < P127 -> sval (of_uval v) = v.
Proof. intro H. rewrite sval_smod, uval_of_uval, smod_mod by apply of_uval_wf. apply smod_small, H. Qed.
Lemma of_uval_sval i : wf i -> of_uval (sval i) = i.
Proof. intro H. apply sval_inj; [apply of_uval_wf|exact H|]. apply sval_of_uval, sval_range, H. Qed.

(* a result specified modulo 2^128 on the unsigned readings is thereby specified on the signed ones *)
Lemma signed_view r v v' : wf r /\ uval r = v mod P128 -> v mod P128 = v' mod P128 -> wf r /\ sval r = smod v'.
Proof. intros [WF E] C. split; [exact WF|]. rewrite (sval_smod r WF), E, smod_mod. apply smod_eqm, C. Qed.

Theorem IAdd_spec i n : wf i -> wf n -> wf (Add i n) /\ sval (Add i n) = smod (sval i + sval n).
Proof. intros Hi Hn. apply (signed_view _ _ _ (Add_spec i n Hi Hn)). rewrite (uval_sval i Hi), (uval_sval n Hn). symmetry. apply Z.add_mod. lia. Qed.
Theorem ISub_spec i n : wf i -> wf n -> wf (Sub i n) /\ sval (Sub i n) = smod (sval i - sval n).
Proof. intros Hi Hn. apply (signed_view _ _ _ (Sub_spec i n Hi Hn)). rewrite (uval_sval i Hi), (uval_sval n Hn). symmetry. apply Zminus_mod. Qed.
Theorem IMul_spec i n : wf i -> wf n -> wf (Mul i n) /\ sval (Mul i n) = smod (sval i * sval n).
Proof. intros Hi Hn. apply (signed_view _ _ _ (Mul_spec i n Hi Hn)). rewrite (uval_sval i Hi), (uval_sval n Hn). symmetry. apply Z.mul_mod. lia. Qed.
Theorem IInc_spec i : wf i -> wf (Inc i) /\ sval (Inc i) = smod (sval i + 1).
Proof. intros Hi. apply (signed_view _ _ _ (Inc_spec i Hi)). rewrite (uval_sval i Hi). apply Z.add_mod_idemp_l. lia. Qed.
Theorem IDec_spec i : wf i -> wf (Dec i) /\ sval (Dec i) = smod (sval i - 1).
Proof. intros Hi. apply (signed_view _ _ _ (Dec_spec i Hi)). rewrite (uval_sval i Hi). apply Zminus_mod_idemp_l. Qed.

Lemma From64_spec n : int64 n -> wf (From64 n) /\ sval (From64 n) = n.
Proof.
  unfold int64, From64, wf, sval, uval. intro H. cbn [hi lo]. destruct (Z.ltb_spec n 0).
  - rewrite (wrap_shift n 1) by (unfold w64; lia). change (SIGN <=? MAX64) with true. cbv iota. lia.
  - rewrite wrap_small by (unfold w64; lia). change (SIGN <=? 0) with false. cbv iota. lia.
Qed.

Lemma isneg_sval i : wf i -> isneg i = (sval i <? 0).
Proof. intros [Hh Hl]. unfold isneg, sval, uval. destruct (Z.leb_spec SIGN (hi i)); symmetry; [apply Z.ltb_lt | apply Z.ltb_ge]; lia. Qed.
Lemma lor_zero_uval i : wf i -> (Z.lor (hi i) (lo i) =? 0) = (uval i =? 0).
Proof.
  intros [Hh Hl]. unfold uval. destruct (Z.eqb_spec (Z.lor (hi i) (lo i)) 0) as [E|E]; symmetry; [apply Z.eqb_eq | apply Z.eqb_neq].
  - apply Z.lor_eq_0_iff in E. destruct E as [-> ->]. reflexivity.
  - intro Z0. apply E, Z.lor_eq_0_iff. lia.
Qed.
Lemma Equal_MinI i : wf i -> Equal i MinI = true -> i = MinI.
Proof.
  intros Hi E. destruct (predicates_spec i MinI Hi wf_MinI) as (_ & _ & E' & _). rewrite E' in E. apply uval_inj; [exact Hi | exact wf_MinI | apply Z.eqb_eq, E].
Qed.

(* the two's complement of a non-zero magnitude, computed from the low word up *)
Lemma negmag_val i : wf i -> uval i <> 0 -> wf (negmag i) /\ uval (negmag i) = P128 - uval i.
Proof.
  intros [Hh Hl] Hn. unfold negmag, not64, wf, uval in *. cbn [hi lo].
  destruct (Z.eq_dec (lo i) 0) as [E|E].
  - rewrite E in *. change (wrap (0 - 1)) with MAX64. change (MAX64 - MAX64 =? 0) with true. cbv iota.
    rewrite wrap_small by (unfold w64; lia). lia.
  - rewrite wrap_small by (unfold w64; lia). rewrite (proj2 (Z.eqb_neq _ 0)) by lia. lia.
Qed.
(* Neg's branch for positive values forms the low word as ^lo + 1 instead of ^(lo - 1) *)
Lemma neg_low x : w64 x -> wrap (not64 x + 1) = not64 (wrap (x - 1)).
Proof.
  unfold w64, not64. intro H. destruct (Z.eq_dec x 0) as [->|E]; [reflexivity|]. rewrite !wrap_small by (unfold w64; lia). ring.
Qed.

Lemma Neg_val i : wf i -> wf (Neg i) /\ uval (Neg i) = (- uval i) mod P128.
Proof.
  intros Hi. pose proof (uval_range i Hi) as R. unfold Neg. rewrite lor_zero_uval by exact Hi.
  destruct (Z.eqb_spec (uval i) 0) as [E|Hnz]; cbn [orb]; [split; [exact Hi | rewrite E; reflexivity]|].
  destruct (Equal i MinI) eqn:EM; [apply Equal_MinI in EM; [subst i; split; [exact Hi | reflexivity] | exact Hi]|].
  assert (N : wf (negmag i) /\ uval (negmag i) = (- uval i) mod P128).
  { destruct (negmag_val i Hi Hnz) as [WF V]. split; [exact WF|]. rewrite V. apply mod128_unique; [lia | exists 1; lia]. }
  destruct (isneg i); [|rewrite neg_low by apply Hi]; exact N.
Qed.
Theorem Neg_spec i : wf i -> wf (Neg i) /\ sval (Neg i) = smod (- sval i).
Proof. intros Hi. apply (signed_view _ _ _ (Neg_val i Hi)). rewrite (uval_sval i Hi), <- !Z.sub_0_l. apply Zminus_mod_idemp_r. Qed.

Lemma Abs_val i : wf i -> wf (Abs i) /\ uval (Abs i) = Z.abs (sval i).
Proof.
  intros Hi. pose proof (uval_range i Hi). unfold Abs, sval, isneg. destruct (Z.leb_spec SIGN (hi i)) as [L|L].
  - destruct (negmag_val i Hi) as [WF V]; [destruct Hi; unfold uval; lia|]. split; [exact WF|]. lia.
  - split; [exact Hi | lia].
Qed.
Theorem Abs_spec i : wf i -> wf (Abs i) /\ sval (Abs i) = smod (Z.abs (sval i)).
Proof. intros Hi. destruct (Abs_val i Hi) as [WF V]. split; [exact WF|]. rewrite (sval_smod _ WF), V. reflexivity. Qed.
Theorem AbsUint128_spec i : wf i -> wf (AbsUint128 i) /\ uval (AbsUint128 i) = Z.abs (sval i).
Proof.
  intros Hi. replace (AbsUint128 i) with (Abs i); [apply Abs_val, Hi|].
  unfold AbsUint128. destruct (Equal i MinI) eqn:EM; [apply Equal_MinI in EM; [subst i|exact Hi]|]; reflexivity.
Qed.
(* signed comparisons are unsigned comparisons of the values plus the two sign tests *)
Lemma isneg_uval i : wf i -> isneg i = (P127 <=? uval i).
Proof. intros [Hh Hl]. unfold isneg, uval. destruct (Z.leb_spec SIGN (hi i)); symmetry; [apply Z.leb_le | apply Z.leb_gt]; lia. Qed.
Lemma sval_isneg i : sval i = if isneg i then uval i - P128 else uval i.
Proof. reflexivity. Qed.

Theorem ISign_spec i : wf i -> ISign i = Z.sgn (sval i).
Proof.
  intros Hi. pose proof (uval_range i Hi). unfold ISign. rewrite lor_zero_uval, sval_isneg, isneg_uval by exact Hi.
  destruct (Z.eqb_spec (uval i) 0), (Z.leb_spec P127 (uval i)); lia.
Qed.

Theorem ICmp_spec i n : wf i -> wf n -> ICmp i n = zcmp3 (sval i) (sval n).
Proof.
  intros Hi Hn. pose proof (uval_range i Hi). pose proof (uval_range n Hn). destruct (predicates_spec i n Hi Hn) as (G & _ & E & _).
  unfold ICmp, same_sign. change (ugt i n) with (GreaterThan i n). rewrite !sval_isneg, G, E, !isneg_uval by assumption.
  unfold zcmp3. destruct (Z.leb_spec P127 (uval i)), (Z.leb_spec P127 (uval n)); cmp_tac.
Qed.
Theorem Ipredicates_spec i n : wf i -> wf n ->
  IGreaterThan i n = (sval n <? sval i) /\ IGreaterThanOrEqual i n = (sval n <=? sval i) /\ Equal i n = (sval i =? sval n) /\
  ILessThan i n = (sval i <? sval n) /\ ILessThanOrEqual i n = (sval i <=? sval n).
Proof.
  intros Hi Hn. pose proof (uval_range i Hi). pose proof (uval_range n Hn). destruct (predicates_spec i n Hi Hn) as (G & _ & E & L & _).
  unfold IGreaterThan, IGreaterThanOrEqual, ILessThan, ILessThanOrEqual, same_sign.
  change (ugt i n) with (GreaterThan i n). change (ult i n) with (LessThan i n). rewrite !sval_isneg, G, E, L, !isneg_uval by assumption.
  destruct (Z.leb_spec P127 (uval i)), (Z.leb_spec P127 (uval n)); repeat split; cmp_tac.
Qed.
Theorem ICmp64_spec i n : wf i -> int64 n ->
  ICmp64 i n = zcmp3 (sval i) n /\ IGreaterThan64 i n = (n <? sval i) /\ IGreaterThanOrEqual64 i n = (n <=? sval i) /\
  IEqual64 i n = (sval i =? n) /\ ILessThan64 i n = (sval i <? n) /\ ILessThanOrEqual64 i n = (sval i <=? n).
Proof.
  intros Hi Hn. destruct (From64_spec n Hn) as [WF E].
  unfold ICmp64, IGreaterThan64, IGreaterThanOrEqual64, IEqual64, ILessThan64, ILessThanOrEqual64.
  rewrite ICmp_spec by assumption. destruct (Ipredicates_spec i (From64 n) Hi WF) as (A & B & C & D & F). rewrite A, B, C, D, F, E. repeat split; reflexivity.
Qed.

(* 64-bit signed operands: the operand is sign-extended and the 128-bit operation applied *)
Lemma IAdd64_Add i n : IAdd64 i n = Add i (From64 n).
Proof.
  unfold IAdd64, Add, From64, add64. cbn [hi lo]. destruct (n <? 0); [rewrite wrap_add_r|rewrite Z.add_0_r]; do 2 f_equal; ring.
Qed.
Lemma ISub64_Sub i n : ISub64 i n = Sub i (From64 n).
Proof.
  unfold ISub64, Sub, From64, sub64. cbn [hi lo]. destruct (n <? 0); [unfold wrap; rewrite Zminus_mod_idemp_l|rewrite Z.sub_0_r]; do 2 f_equal; ring.
Qed.
Theorem IAdd64_spec i n : wf i -> int64 n -> wf (IAdd64 i n) /\ sval (IAdd64 i n) = smod (sval i + n).
Proof. intros Hi Hn. destruct (From64_spec n Hn) as [WF E]. rewrite IAdd64_Add. rewrite <- E at 3. apply (IAdd_spec i _ Hi WF). Qed.
Theorem ISub64_spec i n : wf i -> int64 n -> wf (ISub64 i n) /\ sval (ISub64 i n) = smod (sval i - n).
Proof. intros Hi Hn. destruct (From64_spec n Hn) as [WF E]. rewrite ISub64_Sub. rewrite <- E at 3. apply (ISub_spec i _ Hi WF). Qed.
Theorem IMul64_spec i n : wf i -> int64 n -> wf (IMul64 i n) /\ sval (IMul64 i n) = smod (sval i * n).
Proof. intros Hi Hn. destruct (From64_spec n Hn) as [WF E]. unfold IMul64. rewrite <- E at 3. apply (IMul_spec i _ Hi WF). Qed.
