(* C01 — bitwise operations and bit queries agree with the binary representation of uval *)
From Coq Require Import ZArith List Bool Lia.
From Verif Require Import common.Word64 common.Word64Facts C01.Model C01.ProofsArith.
Open Scope Z_scope.


Lemma testbit_uval u i : wf u -> 0 <= i ->
  Z.testbit (uval u) i = if i <? 64 then Z.testbit (lo u) i else Z.testbit (hi u) (i - 64).
Proof.
  intros [_ Hl] Hi. unfold uval. destruct (Z.ltb_spec i 64).
  - rewrite <- (Z.mod_pow2_bits_low (hi u * W + lo u) 64 i) by lia. f_equal. rewrite <- W_pow, Z.add_comm, Z.mod_add by lia. apply Z.mod_small. lia.
  - replace i with ((i - 64) + 64) at 1 by lia. rewrite <- Z.div_pow2_bits, <- W_pow, Z.add_comm, Z.div_add, Z.div_small by lia. reflexivity.
Qed.

Lemma bitwise_halves (op : Z -> Z -> Z) (f : bool -> bool -> bool) :
  (forall a b i, 0 <= i -> Z.testbit (op a b) i = f (Z.testbit a i) (Z.testbit b i)) ->
  (forall a b, 0 <= a -> 0 <= b -> 0 <= op a b) -> f false false = false ->
  forall u n, wf u -> wf n ->
  wf (mk (op (hi u) (hi n)) (op (lo u) (lo n))) /\ uval (mk (op (hi u) (hi n)) (op (lo u) (lo n))) = op (uval u) (uval n).
Proof.
  intros Hop Hnn Hff u n Hu Hn. pose proof Hu as [Hh Hl]. pose proof Hn as [Hh' Hl'].
  pose proof (w64_op op f Hop Hnn Hff) as Wop.
  assert (WF : wf (mk (op (hi u) (hi n)) (op (lo u) (lo n)))) by (apply wf_mk; apply Wop; assumption).
  split; [exact WF|].
  apply Z.bits_inj'. intros i Hi. rewrite Hop by lia. rewrite !testbit_uval by assumption. cbn [hi lo].
  destruct (i <? 64) eqn:E; [apply Z.ltb_lt in E | apply Z.ltb_ge in E]; rewrite Hop by lia; reflexivity.
Qed.

Theorem And_spec u n : wf u -> wf n -> wf (And u n) /\ uval (And u n) = Z.land (uval u) (uval n).
Proof. apply (bitwise_halves Z.land andb); [intros; apply Z.land_spec | intros; apply Z.land_nonneg; auto | reflexivity]. Qed.
Theorem Or_spec u n : wf u -> wf n -> wf (Or u n) /\ uval (Or u n) = Z.lor (uval u) (uval n).
Proof. apply (bitwise_halves Z.lor orb); [intros; apply Z.lor_spec | intros; apply Z.lor_nonneg; auto | reflexivity]. Qed.
Theorem Xor_spec u n : wf u -> wf n -> wf (Xor u n) /\ uval (Xor u n) = Z.lxor (uval u) (uval n).
Proof. apply (bitwise_halves Z.lxor xorb); [intros; apply Z.lxor_spec | intros; apply Z.lxor_nonneg; split; auto | reflexivity]. Qed.

Theorem AndNot_spec u n : wf u -> wf n -> wf (AndNot u n) /\ uval (AndNot u n) = Z.ldiff (uval u) (uval n).
Proof.
  intros Hu Hn. pose proof Hu as [Hh Hl]. pose proof Hn as [Hh' Hl']. unfold AndNot. rewrite !andnot64_ldiff by (unfold w64; lia).
  apply (bitwise_halves Z.ldiff (fun a b => a && negb b)); [intros; apply Z.ldiff_spec | intros; apply Z.ldiff_nonneg; auto | reflexivity | exact Hu | exact Hn].
Qed.
Theorem Not_spec u : wf u -> wf (Not u) /\ uval (Not u) = P128 - 1 - uval u.
Proof. intros [Hh Hl]. unfold Not, not64, wf, uval. cbn [hi lo]. lia. Qed.


(* the 64-bit-operand variants are the 128-bit operation against the word read as the value (0, n) *)
Lemma And64_And u n : And64 u n = And u (mk 0 n). Proof. unfold And64, And. cbn [hi lo]. rewrite Z.land_0_r. reflexivity. Qed.
Lemma Or64_Or u n : Or64 u n = Or u (mk 0 n). Proof. unfold Or64, Or. cbn [hi lo]. rewrite Z.lor_0_r. reflexivity. Qed.
Lemma Xor64_Xor u n : Xor64 u n = Xor u (mk 0 n). Proof. unfold Xor64, Xor. cbn [hi lo]. rewrite Z.lxor_0_r. reflexivity. Qed.
Lemma AndNot64_AndNot u n : wf u -> AndNot64 u n = AndNot u (mk 0 (lo n)).
Proof. intros [Hh _]. unfold AndNot64, AndNot. cbn [hi lo]. rewrite andnot64_0 by exact Hh. reflexivity. Qed.
Theorem And64_spec u n : wf u -> w64 n -> wf (And64 u n) /\ uval (And64 u n) = Z.land (uval u) n.
Proof. intros Hu Hn. rewrite And64_And. rewrite <- (uval_mk0 n) at 3. apply And_spec, wf_mk0; assumption. Qed.
Theorem Or64_spec u n : wf u -> w64 n -> wf (Or64 u n) /\ uval (Or64 u n) = Z.lor (uval u) n.
Proof. intros Hu Hn. rewrite Or64_Or. rewrite <- (uval_mk0 n) at 3. apply Or_spec, wf_mk0; assumption. Qed.
Theorem Xor64_spec u n : wf u -> w64 n -> wf (Xor64 u n) /\ uval (Xor64 u n) = Z.lxor (uval u) n.
Proof. intros Hu Hn. rewrite Xor64_Xor. rewrite <- (uval_mk0 n) at 3. apply Xor_spec, wf_mk0; assumption. Qed.
Theorem AndNot64_spec u n : wf u -> wf n -> wf (AndNot64 u n) /\ uval (AndNot64 u n) = Z.ldiff (uval u) (lo n).
Proof. intros Hu [_ Hn]. rewrite AndNot64_AndNot by exact Hu. rewrite <- (uval_mk0 (lo n)) at 3. apply AndNot_spec, wf_mk0; assumption. Qed.


Theorem Bit_spec u i : wf u -> Bit u i = if (0 <=? i) && (i <=? 127) then Z.b2z (Z.testbit (uval u) i) else 0.
Proof.
  intro Hu. unfold Bit. destruct (Z.ltb_spec i 0); cbn [orb]; [rewrite (proj2 (Z.leb_gt 0 i)) by lia; reflexivity|].
  rewrite (proj2 (Z.leb_le 0 i)) by lia. destruct (Z.ltb_spec 127 i); cbn [andb]; [rewrite (proj2 (Z.leb_gt i 127)) by lia; reflexivity|].
  rewrite (proj2 (Z.leb_le i 127)) by lia. rewrite testbit_uval by (auto; lia).
  destruct (Z.ltb_spec i 64); apply shr_testbit; lia.
Qed.


(* the mask of bit i as a two-word value; SetBit is Or or AndNot with it *)
Definition bitmask (i : Z) : w128 := if 64 <=? i then mk (shl 1 (i - 64)) 0 else mk 0 (shl 1 i).
Lemma bitmask_spec i : 0 <= i <= 127 -> wf (bitmask i) /\ uval (bitmask i) = 2 ^ i.
Proof.
  intro Hi. unfold bitmask. destruct (Z.leb_spec 64 i); rewrite shl1 by lia.
  - split; [apply wf_mk; [apply pow2_w64 | unfold w64]; lia|]. rewrite uval_mkhi, W_pow, <- Z.pow_add_r by lia. f_equal. lia.
  - split; [apply wf_mk0, pow2_w64; lia | apply uval_mk0].
Qed.
Lemma SetBit_mask u i : wf u -> 0 <= i <= 127 -> SetBit u i 1 = Or u (bitmask i) /\ SetBit u i 0 = AndNot u (bitmask i).
Proof.
  intros [Hh Hl] Hi. unfold SetBit, Or, AndNot, bitmask. rewrite (proj2 (Z.ltb_ge i 0)), (proj2 (Z.ltb_ge 127 i)) by lia. cbn [orb Z.eqb].
  destruct (64 <=? i); cbn [hi lo]; rewrite Z.lor_0_r, andnot64_0 by assumption; split; reflexivity.
Qed.

Theorem SetBit_spec u i : wf u ->
  (0 <= i <= 127 -> (wf (SetBit u i 1) /\ uval (SetBit u i 1) = Z.lor (uval u) (2 ^ i)) /\
                    (wf (SetBit u i 0) /\ uval (SetBit u i 0) = Z.ldiff (uval u) (2 ^ i))) /\
  (i < 0 \/ 127 < i -> forall b, SetBit u i b = u).
Proof.
  intro Hu. split.
  - intro Hi. destruct (SetBit_mask u i Hu Hi) as [-> ->]. destruct (bitmask_spec i Hi) as [WM <-]. split; [apply Or_spec | apply AndNot_spec]; assumption.
  - intros Hi b. unfold SetBit. destruct Hi; [rewrite (proj2 (Z.ltb_lt i 0)) by lia | rewrite (proj2 (Z.ltb_lt 127 i)) by lia; rewrite orb_true_r]; reflexivity.
Qed.

Lemma log2_uval h l : 0 < h -> w64 l -> Z.log2 (h * W + l) = Z.log2 h + 64.
Proof.
  intros Hh Hl. unfold w64 in Hl. pose proof (Z.log2_spec h Hh) as [A B]. pose proof (Z.log2_nonneg h).
  apply Z.log2_unique; [lia|]. rewrite Z.pow_add_r by lia. replace (Z.succ (Z.log2 h + 64)) with (Z.succ (Z.log2 h) + 64) by lia.
  rewrite Z.pow_add_r by lia. rewrite <- W_pow. nia.
Qed.
Theorem BitLen_spec u : wf u -> BitLen u = if uval u =? 0 then 0 else Z.log2 (uval u) + 1.
Proof.
  intros [Hh Hl]. unfold BitLen, len64, uval. destruct (Z.eqb_spec (hi u) 0) as [E|E]; cbn [negb].
  - rewrite E. cbn [Z.mul Z.add]. reflexivity.
  - rewrite (proj2 (Z.eqb_neq (hi u * W + lo u) 0)) by lia. rewrite log2_uval by (unfold w64; lia). lia.
Qed.
Theorem LeadingZeros_spec u : LeadingZeros u = 128 - BitLen u.
Proof. unfold LeadingZeros, BitLen, lz64. destruct (Z.eqb_spec (hi u) 0); cbn [negb]; lia. Qed.
Lemma BitLen_range u : wf u -> 0 <= BitLen u <= 128.
Proof.
  intro Hu. rewrite BitLen_spec by exact Hu. pose proof (uval_range u Hu). destruct (Z.eqb_spec (uval u) 0); [lia|].
  assert (Z.log2 (uval u) < 128) by (apply Z.log2_lt_pow2; [lia | rewrite <- P128_pow; lia]). pose proof (Z.log2_nonneg (uval u)). lia.
Qed.

Definition is_tz (v k : Z) : Prop := Z.testbit v k = true /\ forall j, 0 <= j < k -> Z.testbit v j = false.
Lemma tz_aux_spec : forall fuel x acc, 0 < x < 2 ^ Z.of_nat fuel ->
  let k := tz_aux fuel x acc - acc in 0 <= k < Z.of_nat fuel /\ is_tz x k.
Proof.
  induction fuel as [|f IH]; intros x acc Hx; [cbn in Hx; lia|]. cbn [tz_aux]. destruct (Z.odd x) eqn:Eo.
  - replace (acc - acc) with 0 by lia. split; [lia|]. split; [rewrite Z.bit0_odd; exact Eo | intros j Hj; lia].
  - assert (Hx2 : 0 < x / 2 < 2 ^ Z.of_nat f).
    { rewrite Nat2Z.inj_succ, Z.pow_succ_r in Hx by lia. assert (x <> 1) by (intro; subst; discriminate).
      rewrite (Z.div2_odd x) in Hx. rewrite Eo in Hx. cbn [Z.b2z] in Hx. rewrite <- Z.div2_div. lia. }
    specialize (IH (x / 2) (acc + 1) Hx2). cbv zeta in IH. destruct IH as [R [T1 T2]].
    set (k' := tz_aux f (x / 2) (acc + 1) - (acc + 1)) in *.
    replace (tz_aux f (x / 2) (acc + 1) - acc) with (Z.succ k') by (unfold k'; lia).
    split; [lia|]. split.
    + rewrite <- Z.div2_bits by lia. exact T1.
    + intros j Hj. destruct (Z.eq_dec j 0) as [->|Hj0]; [rewrite Z.bit0_odd; exact Eo|].
      replace j with (Z.succ (j - 1)) by lia. rewrite <- Z.div2_bits by lia. apply T2. lia.
Qed.
Lemma tz64_spec x : w64 x -> x <> 0 -> 0 <= tz64 x < 64 /\ is_tz x (tz64 x).
Proof.
  intros Hx Hn. unfold tz64. rewrite (proj2 (Z.eqb_neq x 0)) by exact Hn. unfold w64 in Hx.
  pose proof (tz_aux_spec 64 x 0 ltac:(change (2 ^ Z.of_nat 64) with W; lia)) as H. cbv zeta in H. rewrite Z.sub_0_r in H. exact H.
Qed.
Theorem TrailingZeros_spec u : wf u ->
  (uval u = 0 -> TrailingZeros u = 128) /\ (uval u <> 0 -> 0 <= TrailingZeros u < 128 /\ is_tz (uval u) (TrailingZeros u)).
Proof.
  intros Hu. pose proof Hu as [Hh Hl]. unfold TrailingZeros. split.
  - intro E. unfold uval in E. assert (hi u = 0 /\ lo u = 0) as [-> ->] by lia. reflexivity.
  - intro Hn. destruct (Z.eqb_spec (lo u) 0) as [E|E].
    + assert (Hhn : hi u <> 0) by (unfold uval in Hn; lia).
      destruct (tz64_spec (hi u) ltac:(unfold w64; lia) Hhn) as [R [T1 T2]]. split; [lia|]. split.
      * rewrite testbit_uval by (auto; lia). rewrite (proj2 (Z.ltb_ge _ 64)) by lia. replace (tz64 (hi u) + 64 - 64) with (tz64 (hi u)) by lia. exact T1.
      * intros j Hj. rewrite testbit_uval by (auto; lia). destruct (Z.ltb_spec j 64); [rewrite E; apply Z.bits_0 | apply T2; lia].
    + destruct (tz64_spec (lo u) ltac:(unfold w64; lia) E) as [R [T1 T2]]. split; [lia|]. split.
      * rewrite testbit_uval by (auto; lia). rewrite (proj2 (Z.ltb_lt _ 64)) by lia. exact T1.
      * intros j Hj. rewrite testbit_uval by (auto; lia). rewrite (proj2 (Z.ltb_lt j 64)) by lia. apply T2. lia.
Qed.

Definition bitsum (v : Z) (from : nat) (n : nat) : Z := fold_right Z.add 0 (map (fun i => Z.b2z (Z.testbit v (Z.of_nat i))) (seq from n)).
(* counting the set bits of y is summing any n bits of x that the low n bits of y repeat *)
Lemma pop_aux_bits : forall n y x from, (forall i, 0 <= i < Z.of_nat n -> Z.testbit y i = Z.testbit x (Z.of_nat from + i)) ->
  pop_aux n y = bitsum x from n.
Proof.
  unfold bitsum. induction n as [|n IH]; intros y x from H; [reflexivity|]. cbn [pop_aux seq map fold_right].
  rewrite <- Z.bit0_odd, (H 0), Z.add_0_r by lia. f_equal. apply IH. intros i Hi.
  rewrite Z.div2_bits, H by lia. f_equal. lia.
Qed.
Lemma bitsum_app v a n m : bitsum v a (n + m) = bitsum v a n + bitsum v (a + n) m.
Proof.
  unfold bitsum. rewrite seq_app, map_app. induction (map (fun i => Z.b2z (Z.testbit v (Z.of_nat i))) (seq a n)) as [|y l IH]; cbn [app fold_right]; lia.
Qed.
Theorem OnesCount_spec u : wf u -> OnesCount u = bitsum (uval u) 0 128.
Proof.
  intro Hu. unfold OnesCount, pop64. change 128%nat with (64 + 64)%nat. rewrite bitsum_app, Z.add_comm.
  f_equal; apply pop_aux_bits; intros i Hi; rewrite testbit_uval by (auto; lia).
  - rewrite (proj2 (Z.ltb_lt _ 64)) by lia. reflexivity.
  - rewrite (proj2 (Z.ltb_ge _ 64)) by lia. f_equal. lia.
Qed.
