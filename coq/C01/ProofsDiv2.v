(* C01 — division, part 2: the dispatch of Div / Mod / DivMod over the three kernels, the power-of-two shortcut, and the
   64-bit variants. *)
From Coq Require Import ZArith Lia.
From Verif Require Import common.Word64 common.Word64Facts C01.Model C01.ProofsArith C01.ProofsShift C01.ProofsBits C01.ProofsDiv.
Open Scope Z_scope.

Lemma pow2_from_bits v k : 0 < v -> 0 <= k -> is_tz v k -> Z.log2 v = k -> v = 2 ^ k.
Proof.
  intros Hv Hk [T1 T2] HL. apply Z.bits_inj'. intros i Hi. rewrite Z.pow2_bits_eqb by lia.
  destruct (Z.eqb_spec k i) as [<-|Hne]; [exact T1|]. destruct (Z_lt_dec i k); [apply T2; lia|]. apply Z.bits_above_log2; lia.
Qed.

(* Div, Mod and DivMod run the same dispatch and differ in what they select from the pair at every exit *)
Definition pick {A} (sel : w128 -> w128 -> A) (qr : w128 * w128) : A := sel (fst qr) (snd qr).
Lemma lift_pick {A} (sel : w128 -> w128 -> A) o : lift sel o = rmap (pick sel) (lift pair o).
Proof. destruct o as [[q r]|]; reflexivity. Qed.
Lemma divgen_pick {A} (sel : w128 -> w128 -> A) u n : divgen sel u n = rmap (pick sel) (DivMod u n).
Proof.
  unfold DivMod, divgen. repeat match goal with |- context [if ?c then _ else _] => destruct c end; try reflexivity; apply lift_pick.
Qed.

Definition ok_result (u n : w128) (x : res (w128 * w128)) : Prop := exists q r, x = Ok (q, r) /\ euclid u n q r.
Lemma ok_mk u n q r : wf q -> wf r -> uval q = uval u / uval n -> uval r = uval u mod uval n -> ok_result u n (Ok (q, r)).
Proof. intros. exists q, r. unfold euclid. auto. Qed.
Lemma lift_result u n o : div_result u n o -> ok_result u n (lift pair o).
Proof. intros (q & r & -> & H). exists q, r. split; [reflexivity|exact H]. Qed.

Lemma pow2_divisor u n : wf u -> wf n -> 0 < uval n -> LeadingZeros n + TrailingZeros n = 127 ->
  let q := RightShift u (TrailingZeros n) in let r := And (Dec n) u in
  wf q /\ wf r /\ uval q = uval u / uval n /\ uval r = uval u mod uval n.
Proof.
  intros Wu Wn Hn H. pose proof (uval_range n Wn) as Rn. pose proof (uval_range u Wu) as Ru.
  destruct (TrailingZeros_spec n Wn) as [_ T]. destruct (T ltac:(lia)) as [Tr Tz]. set (k := TrailingZeros n) in *.
  rewrite LeadingZeros_spec, BitLen_spec in H by assumption. destruct (Z.eqb_spec (uval n) 0); [lia|].
  assert (En : uval n = 2 ^ k) by (apply pow2_from_bits; [lia|lia|exact Tz|lia]).
  destruct (RightShift_spec u k Wu ltac:(lia)) as [Wq Vq]. destruct (Dec_spec n Wn) as [Wd Vd]. rewrite Z.mod_small in Vd by lia.
  destruct (And_spec (Dec n) u Wd Wu) as [Wr Vr].
  cbn zeta. split; [exact Wq|]. split; [exact Wr|]. split; [rewrite Vq, En; reflexivity|].
  rewrite Vr, Vd, En. rewrite Z.land_comm. replace (2 ^ k - 1) with (Z.ones k) by (rewrite Z.ones_equiv; lia). apply Z.land_ones. lia.
Qed.

(* the part of the dispatch shared by one-word and two-word divisors; the two implications say which leading-zero counts the
   caller passes in either case *)
Lemma general_ok u n nLo nHi nLeading0 : wf u -> wf n -> 0 < uval n -> nLeading0 = LeadingZeros n ->
  (hi n = 0 -> nHi = 64 /\ nLo = lz64 (lo n)) -> (hi n <> 0 -> nHi = lz64 (hi n) /\ nLo = 0) ->
  ok_result u n
    (let nTrailing0 := TrailingZeros n in
     if nLeading0 + nTrailing0 =? 127 then Ok (RightShift u nTrailing0, And (Dec n) u)
     else let c := Cmp u n in
       if c <? 0 then Ok (zero, u)
       else if c =? 0 then Ok (mk 0 1, zero)
       else let uLeading0 := LeadingZeros u in
         lift pair (if 16 <? nLeading0 - uLeading0 then divmod128by128 u n nHi nLo else divmod128bin u n uLeading0 nLeading0)).
Proof.
  intros Wu Wn Hn -> H0 H1. pose proof (uval_range n Wn) as Rn. pose proof (uval_range u Wu) as Ru. cbn zeta.
  destruct (Z.eqb_spec (LeadingZeros n + TrailingZeros n) 127) as [E|E].
  - destruct (pow2_divisor u n Wu Wn Hn E) as (Wq & Wr & Vq & Vr). apply ok_mk; assumption.
  - rewrite (Cmp_spec u n Wu Wn). unfold zcmp3. destruct (Z.compare_spec (uval u) (uval n)) as [L|L|L]; cbn [Z.ltb Z.eqb Z.compare].
    + apply ok_mk; [apply wf_mk; unfold w64; lia | exact wf_zero | ..]; rewrite L, ?Z.div_same, ?Z.mod_same by lia; reflexivity.
    + apply ok_mk; [exact wf_zero | exact Wu | rewrite Z.div_small by lia; reflexivity | rewrite Z.mod_small by lia; reflexivity].
    + apply lift_result. destruct (16 <? LeadingZeros n - LeadingZeros u).
      * destruct (Z.eq_dec (hi n) 0) as [Hz|Hz].
        -- destruct (H0 Hz) as [-> ->]. apply by128_small; try assumption. destruct Wn as [_ Wl]. unfold uval in Hn. lia.
        -- destruct (H1 Hz) as [-> ->]. apply by128_large; try assumption. destruct Wn as [Wh _]. lia.
      * apply bin_result; assumption.
Qed.

Lemma DivMod_ok u n : wf u -> wf n -> (uval n = 0 -> DivMod u n = DivZero) /\ (0 < uval n -> ok_result u n (DivMod u n)).
Proof.
  intros Wu Wn. pose proof (uval_range n Wn) as Rn. pose proof Wn as [Wh Wl]. unfold DivMod, divgen. split.
  - intro Z0. unfold uval in Z0. assert (hi n = 0) as -> by lia. assert (lo n = 0) as -> by lia. reflexivity.
  - intro Hn. destruct (Z.eqb_spec (hi n) 0) as [Hz|Hz].
    + assert (En : uval n = lo n) by (unfold uval; rewrite Hz; lia).
      destruct (Z.eqb_spec (lo n) 0); [lia|]. destruct (Z.eqb_spec (lo n) 1) as [E1|E1].
      * apply ok_mk; [exact Wu | exact wf_zero | rewrite En, E1, Z.div_1_r; reflexivity | rewrite En, E1, Z.mod_1_r; reflexivity].
      * destruct (Z.eqb_spec (hi u) 0) as [Hu0|Hu0].
        -- destruct Wu as [_ Wul]. assert (Eu : uval u = lo u) by (unfold uval; rewrite Hu0; lia).
           pose proof (Z.mod_pos_bound (lo u) (lo n) ltac:(lia)). assert (0 <= lo u / lo n <= lo u) by (split; [apply Z.div_pos; lia|apply Z.div_le_upper_bound; nia]).
           apply ok_mk; rewrite ?uval_mk0, ?En, ?Eu; try reflexivity; apply wf_mk; unfold w64; lia.
        -- apply general_ok; try assumption; [unfold LeadingZeros; rewrite Hz; reflexivity | intros _; split; reflexivity | intro X; contradiction].
    + apply general_ok; try assumption; [unfold LeadingZeros; rewrite (proj2 (Z.eqb_neq _ _) Hz); reflexivity | intro X; contradiction | intros _; split; reflexivity].
Qed.

Theorem DivMod_spec u n : wf u -> wf n ->
  (uval n = 0 -> DivMod u n = DivZero /\ Div u n = DivZero /\ Mod u n = DivZero) /\
  (0 < uval n -> exists q r, DivMod u n = Ok (q, r) /\ Div u n = Ok q /\ Mod u n = Ok r /\
                 wf q /\ wf r /\ uval q = uval u / uval n /\ uval r = uval u mod uval n /\ uval q * uval n + uval r = uval u /\ uval r < uval n).
Proof.
  intros Wu Wn. unfold Div, Mod. rewrite !divgen_pick. destruct (DivMod_ok u n Wu Wn) as [Z0 K]. split.
  - intro E. rewrite (Z0 E). repeat split.
  - intro Hn. destruct (K Hn) as (q & r & -> & Wq & Wr & Vq & Vr). exists q, r. repeat split; try assumption; try reflexivity; try apply Wq; try apply Wr.
    + rewrite Vq, Vr. pose proof (Z.div_mod (uval u) (uval n) ltac:(lia)). lia.
    + rewrite Vr. apply Z.mod_pos_bound. lia.
Qed.

(* The 64-bit-divisor variants run the same dispatch on the divisor (0, n), with the small-divisor kernel call written out *)
Lemma divgen64_divgen {A} (sel : w128 -> w128 -> A) u n : wf u -> 0 <= n -> divgen64 sel u n = divgen sel u (mk 0 n).
Proof.
  intros [[Wh _] _] Hn. unfold divgen64, divgen, TrailingZeros, divmod128by128. cbn [hi lo Z.eqb].
  destruct (Z.eqb_spec n 0) as [->|N0]; [reflexivity|]. destruct (n =? 1); [reflexivity|].
  destruct (Z.eqb_spec (hi u) 0) as [_|U0]; [reflexivity|].
  replace (And (Dec (mk 0 n)) u) with (And64 u (wrap (n - 1))).
  2:{ unfold And64, And, Dec, sub64. cbn [hi lo]. destruct (Z.ltb_spec (n - 1 - 0) 0); [lia|]. change (wrap (0 - 0)) with 0.
      rewrite Z.sub_0_r, Z.land_0_l, Z.land_comm. reflexivity. }
  replace (Cmp u (mk 0 n)) with (Cmp64 u n).
  2:{ unfold Cmp, Cmp64. cbn [hi lo]. rewrite (proj2 (Z.eqb_neq _ _) U0), (proj2 (Z.ltb_lt 0 (hi u))) by lia. reflexivity. }
  repeat match goal with |- context [if ?c then _ else _] => destruct c end; try reflexivity;
    match goal with |- context [divmod128by64 ?a ?b ?c] => destruct (divmod128by64 a b c) as [[? ?]|] end; reflexivity.
Qed.

Theorem DivMod64_spec u n : wf u -> w64 n ->
  (n = 0 -> DivMod64 u n = DivZero /\ Div64 u n = DivZero /\ Mod64 u n = DivZero) /\
  (0 < n -> exists q r, DivMod64 u n = Ok (q, r) /\ Div64 u n = Ok q /\ Mod64 u n = Ok r /\
            wf q /\ wf r /\ uval q = uval u / n /\ uval r = uval u mod n /\ uval q * n + uval r = uval u /\ uval r < n).
Proof.
  intros Wu Wn. unfold DivMod64, Div64, Mod64. rewrite !divgen64_divgen by (assumption || apply Wn).
  rewrite <- (uval_mk0 n). apply DivMod_spec; [exact Wu | apply wf_mk; [unfold w64; lia | exact Wn]].
Qed.
