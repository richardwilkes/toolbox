(* C01 — the three division kernels return the exact quotient and remainder: divmod128by64 (Hacker's Delight divlu: two quotient
   digits in base 2^32, each estimated from the divisor's top half and corrected at most twice), the shift-and-subtract loop, and
   divmod128by128 (long division over the 128/64 kernel, or estimate and one correction). *)
From Coq Require Import ZArith Bool Lia.
From Verif Require Import common.Word64 common.Word64Facts C01.Model C01.ProofsArith C01.ProofsShift C01.ProofsBits.
Open Scope Z_scope.

Lemma le_from_mul q Q v NN : 0 < v -> q * v <= NN -> NN < (Q + 1) * v -> q <= Q.
Proof. intros. nia. Qed.

Lemma euclid_unique U N q r : 0 <= r < N -> U = q * N + r -> q = U / N /\ r = U mod N.
Proof. intros Hr ->. split; [apply (Z.div_unique_pos _ N q r) | apply (Z.mod_unique_pos _ N q r)]; lia. Qed.

(* aligning the top bits: n shifted left by the difference of the bit lengths is more than half of u and stays below u's next power of two *)
Lemma log2_align u n : 0 < n <= u -> let k := Z.log2 u - Z.log2 n in
  0 <= k <= Z.log2 u /\ n * 2 ^ k < 2 ^ (Z.log2 u + 1) /\ u < 2 * (n * 2 ^ k).
Proof.
  intros H k. pose proof (Z.log2_spec u ltac:(lia)) as Ba. pose proof (Z.log2_spec n ltac:(lia)) as Bb.
  pose proof (Z.log2_le_mono n u ltac:(lia)). pose proof (Z.log2_nonneg n).
  set (a := Z.log2 u) in *. set (b := Z.log2 n) in *. rewrite <- !Z.add_1_r in Ba, Bb.
  assert (Pk : 0 < 2 ^ k) by (apply Z.pow_pos_nonneg; unfold k; lia).
  assert (Eab : 2 ^ a = 2 ^ b * 2 ^ k) by (rewrite <- Z.pow_add_r by (unfold k; lia); f_equal; unfold k; lia).
  assert (Eab1 : 2 ^ (a + 1) = 2 ^ (b + 1) * 2 ^ k) by (rewrite <- Z.pow_add_r by (unfold k; lia); f_equal; unfold k; lia).
  assert (E2 : 2 ^ (a + 1) = 2 * 2 ^ a) by (rewrite Z.pow_add_r by lia; lia).
  repeat split; try (unfold k; lia); [rewrite Eab1 | rewrite E2 in Ba]; nia.
Qed.

(* one step of long division in base b: the digit h is divided first, its remainder is carried into the next digit l *)
Lemma long_div_step d b h l : 0 < d -> 0 <= h -> 0 <= l < b ->
  (h * b + l) / d = h / d * b + ((h mod d) * b + l) / d /\ (h * b + l) mod d = ((h mod d) * b + l) mod d /\
  0 <= ((h mod d) * b + l) / d < b.
Proof.
  intros Hd Hh Hl. pose proof (Z.mod_pos_bound h d Hd) as Hm. pose proof (Z.div_mod h d ltac:(lia)) as E.
  set (m := h mod d) in *. set (q := h / d) in *.
  replace (h * b + l) with (q * b * d + (m * b + l)) by (clear - E; nia).
  rewrite Z.div_add_l, (Z.add_comm (q * b * d)), Z.mod_add by lia. repeat split; try reflexivity.
  - apply Z.div_pos; nia.
  - apply Z.div_lt_upper_bound; nia.
Qed.

Lemma scaled_bounds x p t v l : 0 < p -> v * (p * t) + l = x * p -> 0 <= l < p * t -> v * t <= x < (v + 1) * t.
Proof. intros Hp E Hl. assert (E' : l = p * (x - v * t)) by lia. rewrite E' in Hl. clear E E'. nia. Qed.

(* D = v1 * t under-estimates the divisor n by less than t; then floor (u / D) is the quotient or one more. S stands for 2^63:
   only v1 >= S and u < (2S)^2 are used *)
Lemma estimate_core S u n v1 t : 0 < S -> 0 <= u < 4 * S * S -> S <= v1 -> (t = 2 \/ 4 <= t) -> v1 * t <= n < (v1 + 1) * t ->
  let q := u / (v1 * t) in 0 <= q < 2 * S /\ u / n <= q /\ (q - 1) * n <= u.
Proof.
  intros HS Hu Hv Ht Hn. cbv zeta. set (D := v1 * t) in *. assert (HD : 2 * S <= D) by (unfold D; destruct Ht; nia).
  pose proof (Z.div_mod u D ltac:(lia)) as E. pose proof (Z.mod_pos_bound u D ltac:(lia)) as M. set (q := u / D) in *.
  assert (Hq0 : 0 <= q) by (apply Z.div_pos; lia). assert (Hq : q < 2 * S) by nia.
  split; [lia|]. split.
  - unfold q. apply Z.div_le_compat_l; lia.
  - assert (A : (q - 1) * (n - D) <= D).
    { destruct (Z.eq_dec q 0) as [->|Hq1]; [lia|]. destruct Ht as [->|Ht].
      + (* t = 2: n - D <= 1 and q < 2S <= D *)
        assert (n - D <= 1) by (unfold D in *; lia). nia.
      + (* t >= 4: (q-1)(n-D) < q*t < 4S <= D *)
        assert (q * t * S <= q * D) by (unfold D; nia).
        assert (q * t < 4 * S) by nia. assert (4 * S <= D) by (unfold D; nia).
        assert ((q - 1) * (n - D) <= q * t) by (unfold D in *; nia). lia. }
    lia.
Qed.

(* One quotient digit: uh * B32 + un1 divided by the normalised divisor v = vn1 * B32 + vn0 (top bit set: Hv1), where uh < v.
   The estimate uh / vn1 is at most two too large; [over q rhat] is the code's test that q still is, rhat being uh - q * vn1. *)
Section Digit.
Variables uh un1 vn1 vn0 : Z.
Hypothesis Hv1 : 2147483648 <= vn1 < B32.
Hypothesis Hv0 : 0 <= vn0 < B32.
Hypothesis Hu1 : 0 <= un1 < B32.
Hypothesis Huh : 0 <= uh < vn1 * B32 + vn0.
Let v := vn1 * B32 + vn0.
Let NN := uh * B32 + un1.
Let Q := NN / v.
Definition over (q1 rhat : Z) : bool := (B32 <=? q1) || (rhat * B32 + un1 <? q1 * vn0).

Lemma vpos : 0 < v. Proof. unfold v; lia. Qed.
Lemma Qspec : Q * v <= NN < (Q + 1) * v.
Proof. unfold Q. pose proof vpos. pose proof (Z.div_mod NN v ltac:(lia)). pose proof (Z.mod_pos_bound NN v ltac:(lia)). nia. Qed.
Lemma Qlt : 0 <= Q < B32.
Proof. pose proof Qspec. pose proof vpos. assert (NN < B32 * v) by (unfold NN, v in *; nia). assert (0 <= NN) by (unfold NN; nia). split; nia. Qed.
Lemma digit_rem q r : uh = q * vn1 + r -> NN - q * v = r * B32 + un1 - q * vn0.
Proof. intros ->. unfold NN, v. ring. Qed.
Lemma exact q r : uh = q * vn1 + r -> Q <= q -> q * vn0 <= r * B32 + un1 -> q = Q.
Proof. intros H1 H2 H3. pose proof (digit_rem q r H1). pose proof Qspec. pose proof vpos.
  assert (q <= Q) by (apply (le_from_mul q Q v NN); lia). lia. Qed.
Lemma over_dec q r : uh = q * vn1 + r -> Q <= q -> over q r = true -> Q <= q - 1.
Proof. intros H1 H2 H3. unfold over in H3. apply Bool.orb_true_iff in H3. destruct H3 as [H3|H3].
  - apply Z.leb_le in H3. pose proof Qlt. lia.
  - apply Z.ltb_lt in H3. pose proof (digit_rem q r H1). pose proof Qspec. pose proof vpos.
    assert (~ q <= Q). { intro. assert (q * v <= Q * v) by nia. lia. } lia. Qed.
Lemma rhat_big q r : B32 <= r -> 0 <= q <= B32 -> q * vn0 <= r * B32 + un1.
Proof. intros. nia. Qed.
Lemma q0_bounds : 0 <= uh / vn1 <= B32 + 1 /\ Q <= uh / vn1 /\ uh = (uh / vn1) * vn1 + uh mod vn1 /\ 0 <= uh mod vn1 < vn1.
Proof.
  pose proof (Z.div_mod uh vn1 ltac:(lia)). pose proof (Z.mod_pos_bound uh vn1 ltac:(lia)).
  set (q0 := uh / vn1) in *. set (r0 := uh mod vn1) in *.
  assert (0 <= q0) by (apply Z.div_pos; lia).
  assert (q0 <= B32 + 1). { assert (q0 * vn1 <= uh) by lia. assert (uh < (B32 + 2) * vn1) by (unfold v in *; nia). nia. }
  assert (Q <= q0).
  { pose proof Qspec. pose proof vpos. assert (NN < (q0 + 1) * (vn1 * B32)) by (unfold NN; nia).
    assert ((q0 + 1) * (vn1 * B32) <= (q0 + 1) * v) by (unfold v; nia).
    apply (le_from_mul Q q0 v (Q * v)); try lia. }
  repeat split; lia.
Qed.

(* the loop as coded, on wrapped words: invariant uh = q*vn1 + rhat, Q <= q <= B32+1, rhat < B32, left = wrap (q*vn0), right = rhat*B32+un1 *)
Lemma cond_is_over q rhat : 0 <= q <= B32 + 1 ->
  ((B32 <=? q) || (rhat * B32 + un1 <? wrap (q * vn0))) = over q rhat.
Proof.
  intro Hq. unfold over. destruct (Z.leb_spec B32 q); [reflexivity|]. cbn [orb]. rewrite wrap_small; [reflexivity|]. unfold w64. nia.
Qed.
Lemma qloop_step f q rhat : 0 <= q <= B32 + 1 -> 0 <= rhat < B32 ->
  qloop (S f) q rhat (wrap (q * vn0)) (rhat * B32 + un1) vn1 vn0 un1 =
  if over q rhat then (if rhat + vn1 <? B32 then qloop f (q - 1) (rhat + vn1) (wrap ((q - 1) * vn0)) ((rhat + vn1) * B32 + un1) vn1 vn0 un1 else Some (q - 1)) else Some q.
Proof.
  intros Hq Hr. cbn [qloop]. rewrite cond_is_over by assumption. destruct (over q rhat) eqn:E; [|reflexivity].
  assert (Hq1 : 1 <= q).
  { unfold over in E. apply Bool.orb_true_iff in E. destruct E as [E|E]; [apply Z.leb_le in E; lia|apply Z.ltb_lt in E; nia]. }
  rewrite (wrap_small (q - 1)) by (unfold w64; lia). rewrite (wrap_small (rhat + vn1)) by (unfold w64; lia).
  destruct (rhat + vn1 <? B32) eqn:R; [|reflexivity]. apply Z.ltb_lt in R.
  rewrite lor_right by lia. f_equal.
  unfold wrap. rewrite Zminus_mod_idemp_l. f_equal. ring.
Qed.

(* from any state of the loop's invariant: every correction adds vn1 >= 2^31 to rhat, which must stay below 2^32 for another round *)
Lemma qloop_inv fuel : forall q r, uh = q * vn1 + r -> Q <= q <= B32 + 1 -> 0 <= r < B32 -> B32 - r < Z.of_nat fuel * vn1 ->
  qloop fuel q r (wrap (q * vn0)) (r * B32 + un1) vn1 vn0 un1 = Some Q.
Proof.
  induction fuel as [|f IH]; intros q r Hdm Hq Hr Hf; [lia|].
  pose proof Qlt. rewrite qloop_step by lia. destruct (over q r) eqn:E.
  - pose proof (over_dec q r Hdm (proj1 Hq) E) as HQ1. assert (Hdm1 : uh = (q - 1) * vn1 + (r + vn1)) by lia.
    destruct (Z.ltb_spec (r + vn1) B32); [apply IH; lia|].
    f_equal. apply (exact _ _ Hdm1 HQ1), rhat_big; lia.
  - f_equal. apply (exact _ _ Hdm (proj1 Hq)). unfold over in E. apply Bool.orb_false_iff in E. destruct E as [_ E]. apply Z.ltb_ge in E. lia.
Qed.
Lemma qloop_ok fuel : (3 <= fuel)%nat ->
  qloop fuel (uh / vn1) (uh mod vn1) (wrap ((uh / vn1) * vn0)) ((uh mod vn1) * B32 + un1) vn1 vn0 un1 = Some Q.
Proof. intro HF. destruct q0_bounds as (Hb0 & HQ0 & Hdm & Hr0). apply qloop_inv; lia. Qed.
End Digit.

Definition euclid (u n q r : w128) : Prop := wf q /\ wf r /\ uval q = uval u / uval n /\ uval r = uval u mod uval n.
Definition div_result (u n : w128) (o : option (w128 * w128)) : Prop := exists q r, o = Some (q, r) /\ euclid u n q r.

(* one digit as the code computes it for a normalised divisor n: the estimate loop on the halves of n, then the partial remainder
   formed on wrapped words *)
Lemma digit_spec n h l : SIGN <= n < W -> 0 <= h < n -> 0 <= l < B32 ->
  let vn1 := n / B32 in let vn0 := n mod B32 in let N := h * B32 + l in
  qloop 4 (h / vn1) (h mod vn1) (wrap (h / vn1 * vn0)) (h mod vn1 * B32 + l) vn1 vn0 l = Some (N / n) /\
  wrap (shl h 32 + wrap (l - wrap (N / n * n))) = N mod n /\ 0 <= N / n < B32 /\ 0 < vn1 /\ 0 <= h mod vn1 < B32.
Proof.
  intros Hn Hh Hl vn1 vn0 N. destruct (div_mod_parts n B32) as (En & Hv0 & _); [lia..|]. fold vn1 vn0 in En, Hv0.
  assert (Hv1 : 2147483648 <= vn1 < B32) by lia.
  pose proof (Z.mod_pos_bound N n ltac:(lia)). pose proof (Z.mod_pos_bound h vn1 ltac:(lia)).
  rewrite (qloop_ok h l vn1 vn0) by lia. rewrite <- En, wrap_chain. fold N.
  replace (N - N / n * n) with (N mod n) by (rewrite Z.mod_eq; lia). rewrite Z.mod_small by lia.
  repeat split; try lia; [apply Z.div_pos | apply Z.div_lt_upper_bound]; unfold N; nia.
Qed.

(* a two-digit number in base b shifted by p stays a two-digit number when its top digit is below n and n * p fits a digit: the
   equation modulo b * b that LeftShift_spec gives is then exact, and the new top digit is below n * p *)
Lemma shift_fits b h l n p h' l' : 0 <= h < n -> 0 <= l < b -> 0 < p -> n * p <= b -> 0 <= l' < b ->
  h' * b + l' = ((h * b + l) * p) mod (b * b) -> h' * b + l' = (h * b + l) * p /\ h' < n * p.
Proof.
  intros Hh Hl Hp Hn Hl' E. assert (A0 : h * b + l < n * b) by nia.
  assert (A : (h * b + l) * p < n * b * p) by (apply Z.mul_lt_mono_pos_r; lia).
  assert (B : n * p * b <= b * b) by (apply Z.mul_le_mono_nonneg_r; lia).
  assert (C : 0 <= (h * b + l) * p) by nia.
  rewrite Z.mod_small in E by lia. split; [exact E|nia].
Qed.

Lemma norm_dividend u s : 0 <= s < 64 ->
  (if 0 <? s then mk (Z.lor (shl (hi u) s) (shr (lo u) (64 - s))) (shl (lo u) s) else u) = LeftShift u s.
Proof.
  intro Hs. unfold LeftShift. destruct (Z.eqb_spec s 0) as [->|Hs0]; [reflexivity|].
  rewrite (proj2 (Z.ltb_lt 0 s)), (proj2 (Z.ltb_ge 64 s)), (proj2 (Z.ltb_lt s 64)) by lia. reflexivity.
Qed.

Theorem divmod128by64_spec u n0 : wf u -> 0 < n0 < W -> hi u < n0 ->
  divmod128by64 u n0 (lz64 n0) = Some (uval u / n0, uval u mod n0).
Proof.
  intros Hu Hn Hh. destruct (lz_norm n0 Hn) as [Hs Hnorm]. set (s := lz64 n0) in *. unfold divmod128by64.
  assert (P2 : 0 < 2 ^ s) by (apply Z.pow_pos_nonneg; lia).
  rewrite norm_dividend, shl_val, (Z.mod_small (n0 * 2 ^ s)) by lia. set (n := n0 * 2 ^ s) in *.
  (* the dividend, shifted like the divisor: u * 2^s = (h' * B32 + un1) * B32 + un0 with h' < n *)
  destruct (LeftShift_spec u s Hu) as [[Wh Wl] Vu']; [lia|]. set (h' := hi (LeftShift u s)) in *. set (l' := lo (LeftShift u s)) in *.
  destruct Hu as [Hu1 Hu2]. apply (shift_fits W (hi u) (lo u) n0 (2 ^ s) h' l') in Vu'; [|lia..]. destruct Vu' as [Vu' Hh']. fold n in Hh'.
  rewrite !land_M32, !shr_val by lia. change (2 ^ 32) with B32.
  destruct (div_mod_parts l' B32) as (El & Hu0 & _); [lia..|]. set (un1 := l' / B32) in *. set (un0 := l' mod B32) in *.
  assert (Hun1 : 0 <= un1 < B32) by lia.
  destruct (digit_spec n h' un1) as (D1 & R1 & Q1 & Hv1 & Hr1); [lia..|].
  rewrite (proj2 (Z.eqb_neq _ 0)), shl32_add, D1, R1 by lia. set (N1 := h' * B32 + un1) in *.
  pose proof (Z.mod_pos_bound N1 n ltac:(lia)) as HR1.
  destruct (digit_spec n (N1 mod n) un0) as (D0 & R0 & Q0 & _ & Hr0); [lia..|].
  rewrite lor_right, D0, R0 by lia. set (N0 := N1 mod n * B32 + un0) in *.
  (* u * 2^s = N1 * B32 + un0, one step of long division; then the scaling is undone *)
  destruct (long_div_step n B32 N1 un0) as (Eq & Er & _); [unfold N1; lia..|]. fold N0 in Eq, Er.
  replace (N1 * B32 + un0) with (uval u * 2 ^ s) in Eq, Er by (unfold uval; rewrite <- Vu', El; unfold N1; ring).
  unfold n in Eq at 1. unfold n in Er at 1. rewrite Z.div_mul_cancel_r in Eq by lia. rewrite Z.mul_mod_distr_r in Er by lia.
  do 2 f_equal.
  - rewrite Eq. apply lor_right; lia.
  - rewrite <- Er. destruct (Z.eqb_spec s 0) as [->|E0]; [unfold shr; cbn; rewrite Z.div_1_r, Z.mul_1_r | rewrite shr_val, Z.div_mul by lia]; reflexivity.
Qed.

(* one round: subtract the shifted divisor if it fits and set the quotient's free low bit *)
Lemma sub_step U0 u n q : wf u -> wf n -> wf q -> U0 = uval q * uval n + uval u -> uval u < 2 * uval n -> lo q mod 2 = 0 ->
  let '(u1, q1) := if uval n <=? uval u then (Sub u n, mk (hi q) (Z.lor (lo q) 1)) else (u, q) in
  wf u1 /\ wf q1 /\ U0 = uval q1 * uval n + uval u1 /\ uval u1 < uval n.
Proof.
  intros Wu Wn Wq Inv Hlt Hev. pose proof (uval_range u Wu). pose proof (uval_range n Wn).
  destruct (Z.leb_spec (uval n) (uval u)) as [L|L]; [|split; [exact Wu|split; [exact Wq|split; [exact Inv|lia]]]].
  destruct (Sub_spec u n Wu Wn) as [Ws Vs]. rewrite Z.mod_small in Vs by lia. destruct Wq as [Wq1 Wq2].
  assert (lo q <> MAX64) by (intro E; rewrite E in Hev; discriminate).
  unfold wf, uval in *. cbn [hi lo]. rewrite lor1_even by (lia || exact Hev). repeat split; try apply Ws; lia.
Qed.
Lemma shl1_even q : lo (LeftShift q 1) mod 2 = 0.
Proof.
  change (lo (LeftShift q 1)) with (shl (lo q) 1). rewrite shl_val by lia. change (2 ^ 1) with 2.
  generalize (lo q). intro x. Z.div_mod_to_equations. lia.
Qed.

(* the loop divides U0 by N: n is N shifted left by the k rounds still to go, q the quotient bits found so far (its low bit free),
   u what is left of U0; U0 = q * n + u and u < 2 * n are kept *)
Lemma binloop_spec N U0 : 0 < N ->
  forall fuel u n q k, wf u -> wf n -> wf q -> 0 <= k -> (Z.to_nat k < fuel)%nat ->
  uval n = N * 2 ^ k -> U0 = uval q * uval n + uval u -> uval u < 2 * uval n -> (lo q) mod 2 = 0 -> U0 < P128 ->
  exists q' r', binloop fuel u n q k = Some (q', r') /\ wf q' /\ wf r' /\ uval q' = U0 / N /\ uval r' = U0 mod N.
Proof.
  intro HN. induction fuel as [|f IH]; intros u n q k Wu Wn Wq Hk Hf En Inv Hlt Hev HU; [lia|].
  cbn [binloop]. destruct (predicates_spec u n Wu Wn) as (_ & -> & _).
  generalize (sub_step U0 u n q Wu Wn Wq Inv Hlt Hev). destruct (if uval n <=? uval u then _ else _) as [u1 q1]. intros (Wu1 & Wq1 & Inv1 & Lt1).
  pose proof (uval_range u1 Wu1) as Ru1. pose proof (uval_range q1 Wq1) as Rq1.
  destruct (Z.leb_spec k 0) as [K0|K0].
  - assert (k = 0) by lia. subst k. rewrite Z.pow_0_r, Z.mul_1_r in En. rewrite En in *.
    exists q1, u1. destruct (euclid_unique U0 N (uval q1) (uval u1)); auto. lia.
  - (* halve the divisor, double the quotient *)
    destruct (RightShift_spec n 1 Wn ltac:(lia)) as [Wn' Vn']. destruct (LeftShift_spec q1 1 Wq1 ltac:(lia)) as [Wq' Vq']. change (2 ^ 1) with 2 in Vn', Vq'.
    assert (E2 : 2 ^ k = 2 * 2 ^ (k - 1)) by (rewrite <- Z.pow_succ_r by lia; f_equal; lia).
    assert (P' : 0 < 2 ^ (k - 1)) by (apply Z.pow_pos_nonneg; lia).
    rewrite En, E2, (Z.mul_comm 2), Z.mul_assoc, Z.div_mul in Vn' by lia.
    assert (Q127 : uval q1 * 2 < P128). { assert (2 <= uval n) by (clear - En E2 P' HN; nia). clear - H Inv1 Ru1 Rq1 HU. nia. }
    rewrite Z.mod_small in Vq' by lia.
    apply (IH u1 (RightShift n 1) (LeftShift q1 1) (k - 1)); try assumption; try lia. apply shl1_even.
Qed.

Lemma bin_result u n : wf u -> wf n -> 0 < uval n -> uval n < uval u ->
  div_result u n (divmod128bin u n (LeadingZeros u) (LeadingZeros n)).
Proof.
  intros Wu Wn Hn Hlt. unfold divmod128bin. pose proof (uval_range u Wu) as Ru. pose proof (uval_range n Wn) as Rn.
  rewrite !LeadingZeros_spec, !BitLen_spec, (proj2 (Z.eqb_neq (uval u) 0)), (proj2 (Z.eqb_neq (uval n) 0)) by (assumption || lia).
  destruct (log2_align (uval u) (uval n) ltac:(lia)) as (Hk & Nk & Lt2).
  replace (128 - (Z.log2 (uval n) + 1) - (128 - (Z.log2 (uval u) + 1))) with (Z.log2 (uval u) - Z.log2 (uval n)) by lia.
  set (k := Z.log2 (uval u) - Z.log2 (uval n)) in *.
  assert (Ha : Z.log2 (uval u) < 128) by (apply Z.log2_lt_pow2; [lia | change (2 ^ 128) with P128; lia]).
  assert (2 ^ (Z.log2 (uval u) + 1) <= P128) by (change P128 with (2 ^ 128); apply Z.pow_le_mono_r; lia).
  destruct (LeftShift_spec n k Wn ltac:(lia)) as [Wv Vv]. rewrite Z.mod_small in Vv by (split; [apply Z.mul_nonneg_nonneg; [|apply Z.pow_nonneg]|]; lia).
  apply (binloop_spec (uval n) (uval u) Hn 130%nat u (LeftShift n k) zero k); try assumption; try lia;
    [exact wf_zero | rewrite uval_zero; lia | reflexivity].
Qed.

(* The 128-by-128 kernel: a step of long division over the 128/64 kernel when the divisor has one word, estimate and one correction otherwise *)
Lemma by128_small u n : wf u -> wf n -> hi n = 0 -> 0 < lo n -> div_result u n (divmod128by128 u n 64 (lz64 (lo n))).
Proof.
  intros [Wh Wl] [_ Wnl] Hn Hl. unfold divmod128by128, div_result, euclid. rewrite Hn. cbn [Z.eqb].
  replace (uval n) with (lo n) by (unfold uval; rewrite Hn; reflexivity).
  destruct (long_div_step (lo n) W (hi u) (lo u)) as (Eq & Er & Rq); [lia..|]. fold (uval u) in Eq, Er.
  pose proof (Z.mod_pos_bound (hi u) (lo n) Hl) as Mh. pose proof (Z.mod_pos_bound (uval u) (lo n) Hl) as Mu.
  destruct (Z.ltb_spec (hi u) (lo n)) as [Hlt|Hge].
  - rewrite (divmod128by64_spec u (lo n)) by (try split; lia).
    rewrite (Z.mod_small (hi u)) in Rq by lia. fold (uval u) in Rq.
    eexists _, _. split; [reflexivity|]. rewrite !uval_mk. unfold wf. cbn [hi lo]. lia.
  - rewrite (divmod128by64_spec (mk (hi u mod lo n) (lo u)) (lo n)) by (try split; cbn [hi lo]; lia). rewrite uval_mk.
    assert (0 <= hi u / lo n < W) by (split; [apply Z.div_pos|apply Z.div_lt_upper_bound]; nia).
    eexists _, _. split; [reflexivity|]. rewrite !uval_mk. unfold wf. cbn [hi lo]. lia.
Qed.

(* the divisor shifted left until its top bit is set: its top word v1 under-estimates n / t by less than one *)
Lemma norm_top n : wf n -> 0 < hi n ->
  let h := lz64 (hi n) in let t := 2 ^ (64 - h) in let v1 := hi (LeftShift n h) in
  0 <= h <= 63 /\ SIGN <= v1 < W /\ v1 * t <= uval n < (v1 + 1) * t /\ (t = 2 \/ 4 <= t).
Proof.
  intros Wn Hn h t v1. pose proof Wn as [Wnh Wnl]. destruct (lz_norm (hi n) ltac:(lia)) as [Hh Hnorm]. fold h in Hh, Hnorm.
  destruct (pow_split h ltac:(lia)) as (Et & P2 & Pt). fold t in Et, Pt.
  destruct (LeftShift_spec n h Wn ltac:(lia)) as [[Wv1 Wv0] Vv]. fold v1 in Wv1.
  assert (A1 : hi n < t) by (apply (Z.mul_lt_mono_pos_l (2 ^ h)); lia).
  assert (Nsmall : 0 <= uval n * 2 ^ h < P128).
  { assert (0 <= uval n < t * W) by (unfold uval; nia). split; [nia|].
    replace P128 with (t * W * 2 ^ h) by lia. apply Z.mul_lt_mono_pos_r; lia. }
  rewrite Z.mod_small in Vv by exact Nsmall. change (uval (LeftShift n h)) with (v1 * W + lo (LeftShift n h)) in Vv.
  set (l0 := lo (LeftShift n h)) in *.
  assert (Hv1 : SIGN <= v1) by (unfold uval in Vv; nia).
  assert (Hnt : v1 * t <= uval n < (v1 + 1) * t) by (apply (scaled_bounds _ (2 ^ h) _ _ l0); rewrite ?Et; assumption).
  repeat split; try lia.
  unfold t. destruct (Z.eq_dec h 63) as [->|]; [left; reflexivity|right]. change 4 with (2 ^ 2). apply Z.pow_le_mono_r; lia.
Qed.

(* an estimate ql that is the quotient or one less: one comparison of the remainder decides, as the kernel's tail does *)
Lemma correct_once u n ql : wf u -> wf n -> 0 < uval n -> 0 <= ql < W -> uval u / uval n - 1 <= ql <= uval u / uval n ->
  div_result u n (let q := mk 0 ql in let r := Sub u (Mul q n) in if 0 <=? Cmp r n then Some (Inc q, Sub r n) else Some (q, r)).
Proof.
  intros Wu Wn Hn Wql Bql. cbv zeta. pose proof (uval_range u Wu) as Ru. pose proof (uval_range n Wn) as Rn.
  pose proof (Z.div_mod (uval u) (uval n) ltac:(lia)) as DM. pose proof (Z.mod_pos_bound (uval u) (uval n) Hn) as MB.
  set (Q := uval u / uval n) in *. set (q := mk 0 ql).
  assert (Wq : wf q) by (apply wf_mk; unfold w64; lia). assert (Vq : uval q = ql) by (unfold q; rewrite uval_mk; lia).
  assert (Pql : 0 <= ql * uval n <= uval u) by (clear - Bql DM MB Hn Wql; nia).
  destruct (Mul_spec q n Wq Wn) as [Wm Vm]. rewrite Vq, Z.mod_small in Vm by lia.
  destruct (Sub_spec u (Mul q n) Wu Wm) as [Wr Vr]. rewrite Vm, Z.mod_small in Vr by lia. set (r := Sub u (Mul q n)) in *.
  rewrite (Cmp_spec r n Wr Wn). unfold zcmp3, div_result, euclid. fold Q.
  assert (C : ql = Q /\ uval r = uval u mod uval n \/ ql = Q - 1 /\ uval r = uval u mod uval n + uval n) 
    by (destruct (Z.eq_dec ql Q) as [->|NE]; [left | right; assert (ql = Q - 1) as -> by lia]; split; try reflexivity; lia).
  destruct (Z.compare_spec (uval r) (uval n)) as [E|L|G]; cbn [Z.leb Z.compare]; [|exists q, r; rewrite Vq; intuition lia|].
  all: destruct (Inc_spec q Wq) as [Wi Vi]; rewrite Vq, Z.mod_small in Vi by lia;
    destruct (Sub_spec r n Wr Wn) as [Ws Vs]; rewrite Z.mod_small in Vs by lia;
    exists (Inc q), (Sub r n); rewrite Vi, Vs; intuition lia.
Qed.

Lemma by128_large u n : wf u -> wf n -> 0 < hi n -> div_result u n (divmod128by128 u n (lz64 (hi n)) 0).
Proof.
  intros Wu Wn Hn. unfold divmod128by128. rewrite (proj2 (Z.eqb_neq (hi n) 0)) by lia.
  pose proof (uval_range u Wu) as Ru. assert (Hn0 : 0 < uval n) by (destruct Wn; unfold uval; lia).
  destruct (norm_top n Wn Hn) as (Hh & Hv1 & Hnt & Ht). set (h := lz64 (hi n)) in *. set (t := 2 ^ (64 - h)) in *. set (v1 := hi (LeftShift n h)) in *.
  (* the halved dividend divided by the top word: floor (u / (v1 * t)) after the shift *)
  destruct (RightShift_spec u 1 Wu ltac:(lia)) as [Wu1 Vu1]. change (2 ^ 1) with 2 in Vu1. set (u1 := RightShift u 1) in *.
  assert (Hu1 : hi u1 < v1).
  { assert (uval u1 < P127) by (rewrite Vu1; apply Z.div_lt_upper_bound; lia). destruct Wu1. unfold uval in *. lia. }
  replace (divmod128by64 u1 v1 0) with (divmod128by64 u1 v1 (lz64 v1)) by (rewrite (lz64_top v1 Hv1); reflexivity).
  rewrite (divmod128by64_spec u1 v1 Wu1 ltac:(lia) Hu1), shr_val, Vu1, !Z.div_div by (try apply Z.pow_pos_nonneg; lia).
  replace (2 * (v1 * 2 ^ (63 - h))) with (v1 * t) by (unfold t; replace (64 - h) with (Z.succ (63 - h)) by lia; rewrite Z.pow_succ_r by lia; ring).
  set (q0 := uval u / (v1 * t)).
  destruct (estimate_core SIGN (uval u) (uval n) v1 t ltac:(lia) Ru ltac:(lia) Ht Hnt) as (Hq0 & Lo & Hi). fold q0 in Hq0, Lo, Hi.
  (* decremented unless zero, the estimate is the quotient or one less *)
  assert (Hql : let ql := if negb (q0 =? 0) then wrap (q0 - 1) else q0 in 0 <= ql < W /\ uval u / uval n - 1 <= ql <= uval u / uval n).
  { cbv zeta. pose proof (Z.div_pos (uval u) (uval n) ltac:(lia) Hn0). destruct (Z.eqb_spec q0 0) as [E|E]; cbn [negb]; [lia|]. rewrite wrap_small by (unfold w64; lia).
    split; [lia|]. split; [lia | apply Z.div_le_lower_bound; lia]. }
  apply correct_once; try assumption; apply Hql.
Qed.
