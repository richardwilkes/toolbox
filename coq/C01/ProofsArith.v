(* C01 — Uint128 addition, subtraction, comparison, multiplication equal arithmetic modulo 2^128 *)
From Coq Require Import ZArith List Bool Lia.
From Verif Require Import common.Word64 common.Word64Facts C01.Model.
Open Scope Z_scope.

Lemma uval_range u : wf u -> 0 <= uval u < P128.
Proof. unfold wf, uval. intros [? ?]. lia. Qed.
Lemma uval_inj u n : wf u -> wf n -> uval u = uval n -> u = n.
Proof. destruct u as [h l], n as [h' l']. unfold wf, uval. cbn. intros [? ?] [? ?] E. assert (h = h') by lia. subst. f_equal. lia. Qed.
Lemma wf_mk h l : w64 h -> w64 l -> wf (mk h l).
Proof. unfold wf, w64. cbn. auto. Qed.
Lemma wf_mk0 n : w64 n -> wf (mk 0 n). Proof. intro H. apply wf_mk; [unfold w64; lia | exact H]. Qed.
Lemma uval_mk a b : uval (mk a b) = a * W + b. Proof. reflexivity. Qed.
Lemma uval_mk0 n : uval (mk 0 n) = n. Proof. unfold uval. cbn [hi lo]. lia. Qed.
Lemma uval_mkhi h : uval (mk h 0) = h * W. Proof. unfold uval. cbn [hi lo]. lia. Qed.
Lemma P128_pow : P128 = 2 ^ 128. Proof. reflexivity. Qed.
Lemma wf_zero : wf zero. Proof. apply wf_mk; unfold w64; lia. Qed.
Lemma uval_zero : uval zero = 0. Proof. reflexivity. Qed.
Lemma wf_halves t : 0 <= t < P128 -> wf (mk (t / W) (t mod W)) /\ uval (mk (t / W) (t mod W)) = t.
Proof. intro H. unfold wf, uval. cbn [hi lo]. Z.div_mod_to_equations. lia. Qed.

Lemma of_uval_wf v : wf (of_uval v).
Proof. unfold wf, of_uval. cbn [hi lo]. Z.div_mod_to_equations. lia. Qed.
Lemma uval_of_uval v : uval (of_uval v) = v mod P128.
Proof. unfold uval, of_uval. cbn [hi lo]. Z.div_mod_to_equations. lia. Qed.
Lemma of_uval_uval u : wf u -> of_uval (uval u) = u.
Proof.
  intro H. apply uval_inj; [apply of_uval_wf|exact H|]. rewrite uval_of_uval. apply Z.mod_small, uval_range, H.
Qed.

Lemma mod128_unique v r : 0 <= r < P128 -> (exists k, r = v + k * P128) -> r = v mod P128.
Proof. intros Hr [k Hk]. apply (Z.mod_unique_pos v P128 (- k) r); lia. Qed.

(* every two-word sum or difference has this shape: the low word wraps, and its carry (for a difference the borrow, a quotient
   of -1) goes into the high word; H and L are arbitrary integers *)
Lemma carry_spec H L : let r := mk (wrap (H + L / W)) (wrap L) in wf r /\ uval r = (H * W + L) mod P128.
Proof.
  cbv zeta. unfold wf, uval, wrap. cbn [hi lo]. split; [split; apply Z.mod_pos_bound; lia|].
  apply mod128_unique; [|exists (- ((H + L / W) / W))]; Z.div_mod_to_equations; lia.
Qed.
Lemma borrow_div d : - W <= d < W -> (if d <? 0 then 1 else 0) = - (d / W).
Proof. intro H. destruct (Z.ltb_spec d 0); Z.div_mod_to_equations; lia. Qed.

(* carry_spec holds of arbitrary integers, so the sums need no well-formedness; the hypotheses keep the statements uniform *)
Theorem Add_spec u n : wf u -> wf n -> wf (Add u n) /\ uval (Add u n) = (uval u + uval n) mod P128.
Proof.
  intros _ _. replace (uval u + uval n) with ((hi u + hi n) * W + (lo u + lo n + 0)) by (unfold uval; ring). apply carry_spec.
Qed.
Theorem Sub_spec u n : wf u -> wf n -> wf (Sub u n) /\ uval (Sub u n) = (uval u - uval n) mod P128.
Proof.
  intros [_ Hl] [_ Hl']. unfold Sub, sub64. rewrite borrow_div, Z.sub_opp_r by lia.
  replace (uval u - uval n) with ((hi u - hi n) * W + (lo u - lo n - 0)) by (unfold uval; ring). apply carry_spec.
Qed.
Theorem Add64_spec u n : wf u -> w64 n -> wf (Add64 u n) /\ uval (Add64 u n) = (uval u + n) mod P128.
Proof. intros _ _. replace (uval u + n) with (hi u * W + (lo u + n + 0)) by (unfold uval; ring). apply carry_spec. Qed.
Theorem Sub64_spec u n : wf u -> w64 n -> wf (Sub64 u n) /\ uval (Sub64 u n) = (uval u - n) mod P128.
Proof.
  intros [_ Hl] Hn. unfold Sub64, sub64, w64 in *. rewrite borrow_div, Z.sub_opp_r by lia.
  replace (uval u - n) with (hi u * W + (lo u - n - 0)) by (unfold uval; ring). apply carry_spec.
Qed.
Theorem Inc_spec u : wf u -> wf (Inc u) /\ uval (Inc u) = (uval u + 1) mod P128.
Proof. intro H. apply (Add64_spec u 1 H). unfold w64. lia. Qed.
Theorem Dec_spec u : wf u -> wf (Dec u) /\ uval (Dec u) = (uval u - 1) mod P128.
Proof. intro H. apply (Sub64_spec u 1 H). unfold w64. lia. Qed.

Definition zcmp3 (a b : Z) : Z := match a ?= b with Lt => -1 | Eq => 0 | Gt => 1 end.
(* for goals that only compare integers: every boolean comparison in the goal is reflected, then lia decides *)
Ltac cmp_tac :=
  repeat match goal with
  | |- context [?a =? ?b] => destruct (Z.eqb_spec a b)
  | |- context [?a <? ?b] => destruct (Z.ltb_spec a b)
  | |- context [?a <=? ?b] => destruct (Z.leb_spec a b)
  | |- context [?a ?= ?b] => destruct (Z.compare_spec a b)
  end; cbn [andb orb negb]; try reflexivity; try lia.

Theorem Cmp_spec u n : wf u -> wf n -> Cmp u n = zcmp3 (uval u) (uval n).
Proof. intros [? ?] [? ?]. unfold Cmp, zcmp3, uval. destruct u as [h l], n as [h' l']; cbn [hi lo] in *. cmp_tac. Qed.
Theorem Cmp64_spec u n : wf u -> w64 n -> Cmp64 u n = zcmp3 (uval u) n.
Proof. intros [? ?] ?. unfold Cmp64, zcmp3, uval, w64 in *. destruct u as [h l]; cbn [hi lo] in *. cmp_tac. Qed.
Theorem predicates_spec u n : wf u -> wf n ->
  GreaterThan u n = (uval n <? uval u) /\ GreaterThanOrEqual u n = (uval n <=? uval u) /\ Equal u n = (uval u =? uval n) /\
  LessThan u n = (uval u <? uval n) /\ LessThanOrEqual u n = (uval u <=? uval n) /\ IsZero u = (uval u =? 0).
Proof.
  intros [? ?] [? ?]. unfold GreaterThan, GreaterThanOrEqual, Equal, LessThan, LessThanOrEqual, IsZero, uval.
  destruct u as [h l], n as [h' l']; cbn [hi lo] in *. repeat split; cmp_tac.
Qed.
Theorem predicates64_spec u n : wf u -> w64 n ->
  GreaterThan64 u n = (n <? uval u) /\ GreaterThanOrEqual64 u n = (n <=? uval u) /\ Equal64 u n = (uval u =? n) /\
  LessThan64 u n = (uval u <? n) /\ LessThanOrEqual64 u n = (uval u <=? n).
Proof.
  intros [? ?] ?. unfold GreaterThan64, GreaterThanOrEqual64, Equal64, LessThan64, LessThanOrEqual64, uval, w64 in *.
  destruct u as [h l]; cbn [hi lo] in *. repeat split; cmp_tac.
Qed.

Theorem Mul_spec u n : wf u -> wf n -> wf (Mul u n) /\ uval (Mul u n) = (uval u * uval n) mod P128.
Proof.
  intros _ _. unfold Mul, mul64. rewrite wrap_add_r, (Z.add_comm (_ / W)), <- Z.add_assoc, wrap_add_l, Z.add_shuffle3, Z.add_comm.
  replace (uval u * uval n) with ((hi u * lo n + lo u * hi n) * W + lo u * lo n + hi u * hi n * P128) by (unfold uval; ring).
  rewrite Z_mod_plus_full. apply carry_spec.
Qed.


(* the high word of a two-digit product as the code accumulates it, and that no partial sum overflows; b is 2^32 below *)
Lemma mulhi_schoolbook b x0 x1 y0 y1 : 0 <= x0 < b -> 0 <= x1 < b -> 0 <= y0 < b -> 0 <= y1 < b ->
  let t := x1 * y0 + (x0 * y0) / b in
  x1 * y1 + t / b + (t mod b + x0 * y1) / b = ((x1 * b + x0) * (y1 * b + y0)) / (b * b) /\
  0 <= x1 * y0 < b * b /\ 0 <= x0 * y0 < b * b /\ 0 <= t < b * b /\ 0 <= x1 * y1 < b * b /\ 0 <= x0 * y1 < b * b /\
  0 <= t mod b + x0 * y1 < b * b.
Proof.
  intros H0 H1 H2 H3 t. assert (Hb : 0 < b) by lia.
  assert (A1 : 0 <= x1 * y0 <= (b - 1) * (b - 1)) by nia.
  assert (A2 : 0 <= x0 * y0 <= (b - 1) * (b - 1)) by nia.
  assert (A3 : 0 <= x1 * y1 <= (b - 1) * (b - 1)) by nia.
  assert (A4 : 0 <= x0 * y1 <= (b - 1) * (b - 1)) by nia.
  destruct (div_mod_parts (x0 * y0) b Hb) as (E0 & R0 & C0); [lia|]. fold t in E0.
  set (c0 := x0 * y0 / b) in *. set (r0 := (x0 * y0) mod b) in *.
  assert (Ht : 0 <= t < b * b) by (unfold t; nia).
  destruct (div_mod_parts t b Hb) as (Et & T0 & T1); [lia|]. set (t1 := t / b) in *. set (t0 := t mod b) in *.
  destruct (div_mod_parts (t0 + x0 * y1) b Hb) as (Es & S0 & S1); [lia|].
  set (s1 := (t0 + x0 * y1) / b) in *. set (s0 := (t0 + x0 * y1) mod b) in *.
  split; [|clear - A1 A2 A3 A4 Ht T0 Hb; repeat split; nia].
  apply Z.div_unique with (r := s0 * b + r0); [left; nia|]. unfold t in Et. clear - E0 Et Es. nia.
Qed.

Theorem Mul64_spec u n : wf u -> w64 n -> wf (Mul64 u n) /\ uval (Mul64 u n) = (uval u * n) mod P128.
Proof.
  intros [_ Hl] Hn. unfold w64 in Hn. unfold Mul64. rewrite !land_M32, !shr_val by lia. change (2 ^ 32) with B32.
  destruct (div_mod_parts (lo u) B32) as (Ex & Hx0 & Hx1); [lia..|]. destruct (div_mod_parts n B32) as (Ey & Hy0 & Hy1); [lia..|].
  set (x0 := lo u mod B32) in *. set (x1 := lo u / B32) in *. set (y0 := n mod B32) in *. set (y1 := n / B32) in *.
  destruct (mulhi_schoolbook B32 x0 x1 y0 y1) as (HI & B1 & B2 & B3 & B4 & B5 & B6); [lia..|]. cbv zeta in HI, B3, B6.
  rewrite (wrap_small (x1 * y0)), (wrap_small (x0 * y0)), (wrap_small (x1 * y0 + _)) by (exact B1 || exact B2 || exact B3).
  rewrite (wrap_small (x1 * y1)), (wrap_small (x0 * y1)), (wrap_small (_ mod B32 + _)) by (exact B4 || exact B5 || exact B6).
  rewrite HI, <- Ex, <- Ey, wrap_add_r, Z.add_comm.
  replace (uval u * n) with (hi u * n * W + lo u * n) by (unfold uval; ring). apply carry_spec.
Qed.
