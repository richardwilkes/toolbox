(* C01 — property theorems only. uval / sval read the two words as an unsigned / two's-complement 128-bit integer;
   wf says both words are in [0, 2^64). smod reduces into [-2^127, 2^127). Every statement is for all well-formed operands. *)
From Coq Require Import ZArith List Bool.
From Verif Require Import common.Word64 common.Word64Facts C01.Model C01.ProofsArith C01.ProofsBits C01.ProofsShift C01.ProofsInt C01.ProofsDiv C01.ProofsDiv2 C01.ProofsDiv3.
Open Scope Z_scope.

(* ---- Uint128 arithmetic = Z mod 2^128 ---- *)
Theorem C01_Add : forall u n, wf u -> wf n -> wf (Add u n) /\ uval (Add u n) = (uval u + uval n) mod P128.
Proof. exact Add_spec. Qed.
Print Assumptions C01_Add.
Theorem C01_Sub : forall u n, wf u -> wf n -> wf (Sub u n) /\ uval (Sub u n) = (uval u - uval n) mod P128.
Proof. exact Sub_spec. Qed.
Print Assumptions C01_Sub.
Theorem C01_Mul : forall u n, wf u -> wf n -> wf (Mul u n) /\ uval (Mul u n) = (uval u * uval n) mod P128.
Proof. exact Mul_spec. Qed.
Print Assumptions C01_Mul.
Theorem C01_Add64 : forall u n, wf u -> w64 n -> wf (Add64 u n) /\ uval (Add64 u n) = (uval u + n) mod P128.
Proof. exact Add64_spec. Qed.
Print Assumptions C01_Add64.
Theorem C01_Sub64 : forall u n, wf u -> w64 n -> wf (Sub64 u n) /\ uval (Sub64 u n) = (uval u - n) mod P128.
Proof. exact Sub64_spec. Qed.
Print Assumptions C01_Sub64.
Theorem C01_Mul64 : forall u n, wf u -> w64 n -> wf (Mul64 u n) /\ uval (Mul64 u n) = (uval u * n) mod P128.
Proof. exact Mul64_spec. Qed.
Print Assumptions C01_Mul64.
Theorem C01_Inc : forall u, wf u -> wf (Inc u) /\ uval (Inc u) = (uval u + 1) mod P128.
Proof. exact Inc_spec. Qed.
Print Assumptions C01_Inc.
Theorem C01_Dec : forall u, wf u -> wf (Dec u) /\ uval (Dec u) = (uval u - 1) mod P128.
Proof. exact Dec_spec. Qed.
Print Assumptions C01_Dec.

(* ---- Uint128 order ---- *)
Theorem C01_Cmp : forall u n, wf u -> wf n -> Cmp u n = zcmp3 (uval u) (uval n).
Proof. exact Cmp_spec. Qed.
Print Assumptions C01_Cmp.
Theorem C01_Cmp64 : forall u n, wf u -> w64 n -> Cmp64 u n = zcmp3 (uval u) n.
Proof. exact Cmp64_spec. Qed.
Print Assumptions C01_Cmp64.
Theorem C01_predicates : forall u n, wf u -> wf n ->
  GreaterThan u n = (uval n <? uval u) /\ GreaterThanOrEqual u n = (uval n <=? uval u) /\ Equal u n = (uval u =? uval n) /\
  LessThan u n = (uval u <? uval n) /\ LessThanOrEqual u n = (uval u <=? uval n) /\ IsZero u = (uval u =? 0).
Proof. exact predicates_spec. Qed.
Print Assumptions C01_predicates.
Theorem C01_predicates64 : forall u n, wf u -> w64 n ->
  GreaterThan64 u n = (n <? uval u) /\ GreaterThanOrEqual64 u n = (n <=? uval u) /\ Equal64 u n = (uval u =? n) /\
  LessThan64 u n = (uval u <? n) /\ LessThanOrEqual64 u n = (uval u <=? n).
Proof. exact predicates64_spec. Qed.
Print Assumptions C01_predicates64.

(* ---- bitwise operations and bit queries = binary representation ---- *)
Theorem C01_And : forall u n, wf u -> wf n -> wf (And u n) /\ uval (And u n) = Z.land (uval u) (uval n).
Proof. exact And_spec. Qed.
Print Assumptions C01_And.
Theorem C01_Or : forall u n, wf u -> wf n -> wf (Or u n) /\ uval (Or u n) = Z.lor (uval u) (uval n).
Proof. exact Or_spec. Qed.
Print Assumptions C01_Or.
Theorem C01_Xor : forall u n, wf u -> wf n -> wf (Xor u n) /\ uval (Xor u n) = Z.lxor (uval u) (uval n).
Proof. exact Xor_spec. Qed.
Print Assumptions C01_Xor.
Theorem C01_AndNot : forall u n, wf u -> wf n -> wf (AndNot u n) /\ uval (AndNot u n) = Z.ldiff (uval u) (uval n).
Proof. exact AndNot_spec. Qed.
Print Assumptions C01_AndNot.
Theorem C01_Not : forall u, wf u -> wf (Not u) /\ uval (Not u) = P128 - 1 - uval u.
Proof. exact Not_spec. Qed.
Print Assumptions C01_Not.
Theorem C01_And64 : forall u n, wf u -> w64 n -> wf (And64 u n) /\ uval (And64 u n) = Z.land (uval u) n.
Proof. exact And64_spec. Qed.
Print Assumptions C01_And64.
Theorem C01_Or64 : forall u n, wf u -> w64 n -> wf (Or64 u n) /\ uval (Or64 u n) = Z.lor (uval u) n.
Proof. exact Or64_spec. Qed.
Print Assumptions C01_Or64.
Theorem C01_Xor64 : forall u n, wf u -> w64 n -> wf (Xor64 u n) /\ uval (Xor64 u n) = Z.lxor (uval u) n.
Proof. exact Xor64_spec. Qed.
Print Assumptions C01_Xor64.
Theorem C01_AndNot64 : forall u n, wf u -> wf n -> wf (AndNot64 u n) /\ uval (AndNot64 u n) = Z.ldiff (uval u) (lo n).
Proof. exact AndNot64_spec. Qed.
Print Assumptions C01_AndNot64.
Theorem C01_Bit : forall u i, wf u -> Bit u i = if (0 <=? i) && (i <=? 127) then Z.b2z (Z.testbit (uval u) i) else 0.
Proof. exact Bit_spec. Qed.
Print Assumptions C01_Bit.
Theorem C01_SetBit : forall u i, wf u ->
  (0 <= i <= 127 -> (wf (SetBit u i 1) /\ uval (SetBit u i 1) = Z.lor (uval u) (2 ^ i)) /\
                    (wf (SetBit u i 0) /\ uval (SetBit u i 0) = Z.ldiff (uval u) (2 ^ i))) /\
  (i < 0 \/ 127 < i -> forall b, SetBit u i b = u).
Proof. exact SetBit_spec. Qed.
Print Assumptions C01_SetBit.
Theorem C01_BitLen : forall u, wf u -> BitLen u = if uval u =? 0 then 0 else Z.log2 (uval u) + 1.
Proof. exact BitLen_spec. Qed.
Print Assumptions C01_BitLen.
Theorem C01_LeadingZeros : forall u, wf u -> LeadingZeros u = 128 - BitLen u.
Proof. intros u _. apply LeadingZeros_spec. Qed.
Print Assumptions C01_LeadingZeros.
Theorem C01_TrailingZeros : forall u, wf u ->
  (uval u = 0 -> TrailingZeros u = 128) /\ (uval u <> 0 -> 0 <= TrailingZeros u < 128 /\ is_tz (uval u) (TrailingZeros u)).
Proof. exact TrailingZeros_spec. Qed.
Print Assumptions C01_TrailingZeros.
Theorem C01_OnesCount : forall u, wf u -> OnesCount u = bitsum (uval u) 0 128.
Proof. exact OnesCount_spec. Qed.
Print Assumptions C01_OnesCount.

(* ---- shifts, every count n >= 0 ---- *)
Theorem C01_LeftShift : forall u n, wf u -> 0 <= n -> wf (LeftShift u n) /\ uval (LeftShift u n) = (uval u * 2 ^ n) mod P128.
Proof. exact LeftShift_spec. Qed.
Print Assumptions C01_LeftShift.
Theorem C01_RightShift : forall u n, wf u -> 0 <= n -> wf (RightShift u n) /\ uval (RightShift u n) = uval u / 2 ^ n.
Proof. exact RightShift_spec. Qed.
Print Assumptions C01_RightShift.

(* ---- Int128: two's complement ---- *)
Theorem C01_IAdd : forall i n, wf i -> wf n -> wf (Add i n) /\ sval (Add i n) = smod (sval i + sval n).
Proof. exact IAdd_spec. Qed.
Print Assumptions C01_IAdd.
Theorem C01_ISub : forall i n, wf i -> wf n -> wf (Sub i n) /\ sval (Sub i n) = smod (sval i - sval n).
Proof. exact ISub_spec. Qed.
Print Assumptions C01_ISub.
Theorem C01_IMul : forall i n, wf i -> wf n -> wf (Mul i n) /\ sval (Mul i n) = smod (sval i * sval n).
Proof. exact IMul_spec. Qed.
Print Assumptions C01_IMul.
Theorem C01_IInc : forall i, wf i -> wf (Inc i) /\ sval (Inc i) = smod (sval i + 1).
Proof. exact IInc_spec. Qed.
Print Assumptions C01_IInc.
Theorem C01_IDec : forall i, wf i -> wf (Dec i) /\ sval (Dec i) = smod (sval i - 1).
Proof. exact IDec_spec. Qed.
Print Assumptions C01_IDec.
Theorem C01_IAdd64 : forall i n, wf i -> int64 n -> wf (IAdd64 i n) /\ sval (IAdd64 i n) = smod (sval i + n).
Proof. exact IAdd64_spec. Qed.
Print Assumptions C01_IAdd64.
Theorem C01_ISub64 : forall i n, wf i -> int64 n -> wf (ISub64 i n) /\ sval (ISub64 i n) = smod (sval i - n).
Proof. exact ISub64_spec. Qed.
Print Assumptions C01_ISub64.
Theorem C01_IMul64 : forall i n, wf i -> int64 n -> wf (IMul64 i n) /\ sval (IMul64 i n) = smod (sval i * n).
Proof. exact IMul64_spec. Qed.
Print Assumptions C01_IMul64.
Theorem C01_Neg : forall i, wf i -> wf (Neg i) /\ sval (Neg i) = smod (- sval i).
Proof. exact Neg_spec. Qed.
Print Assumptions C01_Neg.
Theorem C01_Abs : forall i, wf i -> wf (Abs i) /\ sval (Abs i) = smod (Z.abs (sval i)).
Proof. exact Abs_spec. Qed.
Print Assumptions C01_Abs.
Theorem C01_AbsUint128 : forall i, wf i -> wf (AbsUint128 i) /\ uval (AbsUint128 i) = Z.abs (sval i).
Proof. exact AbsUint128_spec. Qed.
Print Assumptions C01_AbsUint128.
Theorem C01_Sign : forall i, wf i -> ISign i = Z.sgn (sval i).
Proof. exact ISign_spec. Qed.
Print Assumptions C01_Sign.
Theorem C01_ICmp : forall i n, wf i -> wf n -> ICmp i n = zcmp3 (sval i) (sval n).
Proof. exact ICmp_spec. Qed.
Print Assumptions C01_ICmp.
Theorem C01_Ipredicates : forall i n, wf i -> wf n ->
  IGreaterThan i n = (sval n <? sval i) /\ IGreaterThanOrEqual i n = (sval n <=? sval i) /\ Equal i n = (sval i =? sval n) /\
  ILessThan i n = (sval i <? sval n) /\ ILessThanOrEqual i n = (sval i <=? sval n).
Proof. exact Ipredicates_spec. Qed.
Print Assumptions C01_Ipredicates.
Theorem C01_Ipredicates64 : forall i n, wf i -> int64 n ->
  ICmp64 i n = zcmp3 (sval i) n /\ IGreaterThan64 i n = (n <? sval i) /\ IGreaterThanOrEqual64 i n = (n <=? sval i) /\
  IEqual64 i n = (sval i =? n) /\ ILessThan64 i n = (sval i <? n) /\ ILessThanOrEqual64 i n = (sval i <=? n).
Proof. exact ICmp64_spec. Qed.
Print Assumptions C01_Ipredicates64.

(* ---- division *)
(* the 128-by-64 kernel (Hacker's Delight divlu with its two-correction digit loop): exact quotient and remainder whenever the quotient fits *)
Theorem C01_divmod128by64 : forall u n0, wf u -> 0 < n0 < W -> hi u < n0 ->
  divmod128by64 u n0 (lz64 n0) = Some (uval u / n0, uval u mod n0).
Proof. exact divmod128by64_spec. Qed.
Print Assumptions C01_divmod128by64.
(* Div, Mod and DivMod of Uint128, through every path of the dispatch (divisor 0 and 1, 64-bit operands, powers of two, comparison
   shortcuts, the estimate-and-correct kernel, the shift-and-subtract kernel): division by zero is reported as such, and otherwise the
   exact quotient and remainder come back, so that q * n + r = u and r < n; no path runs out of fuel *)
Theorem C01_DivMod : forall u n, wf u -> wf n ->
  (uval n = 0 -> DivMod u n = DivZero /\ Div u n = DivZero /\ Mod u n = DivZero) /\
  (0 < uval n -> exists q r, DivMod u n = Ok (q, r) /\ Div u n = Ok q /\ Mod u n = Ok r /\
                 wf q /\ wf r /\ uval q = uval u / uval n /\ uval r = uval u mod uval n /\ uval q * uval n + uval r = uval u /\ uval r < uval n).
Proof. exact DivMod_spec. Qed.
Print Assumptions C01_DivMod.

(* the variants with a 64-bit divisor *)
Theorem C01_DivMod64 : forall u n, wf u -> w64 n ->
  (n = 0 -> DivMod64 u n = DivZero /\ Div64 u n = DivZero /\ Mod64 u n = DivZero) /\
  (0 < n -> exists q r, DivMod64 u n = Ok (q, r) /\ Div64 u n = Ok q /\ Mod64 u n = Ok r /\
            wf q /\ wf r /\ uval q = uval u / n /\ uval r = uval u mod n /\ uval q * n + uval r = uval u /\ uval r < n).
Proof. exact DivMod64_spec. Qed.
Print Assumptions C01_DivMod64.
(* Int128: quotient truncated toward zero (reduced into the two's-complement range: only MinInt128 / -1 is affected), remainder with
   the dividend's sign; division by zero reported *)
Theorem C01_IDivMod : forall i n, wf i -> wf n ->
  (sval n = 0 -> IDivMod i n = DivZero /\ IDiv i n = DivZero /\ IMod i n = DivZero) /\
  (sval n <> 0 -> exists q r, IDivMod i n = Ok (q, r) /\ IDiv i n = Ok q /\ IMod i n = Ok r /\ wf q /\ wf r /\
                  sval q = smod (Z.quot (sval i) (sval n)) /\ sval r = Z.rem (sval i) (sval n)).
Proof. exact IDivMod_spec. Qed.
Print Assumptions C01_IDivMod.
Theorem C01_IDivMod64 : forall i n, wf i -> int64 n ->
  (n = 0 -> IDivMod64 i n = DivZero /\ IDiv64 i n = DivZero /\ IMod64 i n = DivZero) /\
  (n <> 0 -> exists q r, IDivMod64 i n = Ok (q, r) /\ IDiv64 i n = Ok q /\ IMod64 i n = Ok r /\ wf q /\ wf r /\
             sval q = smod (Z.quot (sval i) n) /\ sval r = Z.rem (sval i) n).
Proof. exact IDivMod64_spec. Qed.
Print Assumptions C01_IDivMod64.

(* non-vacuity and regression *)
Example C01_ex_onescount : OnesCount (mk 3 7) = 5. Proof. reflexivity. Qed.
Example C01_ex_wrap : uval (Add (mk MAX64 MAX64) (mk 0 1)) = 0 /\ sval (Neg MinI) = - P127 /\ DivMod (mk 5 0) zero = DivZero.
Proof. repeat split. Qed.
Example C01_ex_div : DivMod (mk 1 0) (mk 0 3) = Ok (mk 0 6148914691236517205, mk 0 1). Proof. vm_compute. reflexivity. Qed.
