(* C01 — LeftShift / RightShift equal multiplication / division by 2^n (mod 2^128), for every count n >= 0 *)
From Coq Require Import ZArith List Bool Lia.
From Verif Require Import common.Word64 common.Word64Facts C01.Model C01.ProofsArith C01.ProofsBits.
Open Scope Z_scope.

(* the funnel shift both middle cases compute: the word that x and the top n bits of y leave at position 64 of (x, y) * 2^n *)
Lemma funnel x y n : w64 y -> 0 < n < 64 -> Z.lor (shl x n) (shr y (64 - n)) = ((x * W + y) * 2 ^ n / W) mod W.
Proof.
  intros Hy Hn. unfold w64 in *. rewrite shl_val, shr_val by lia.
  destruct (pow_split n ltac:(lia)) as (HPQ & HP & HQ). set (P := 2 ^ n) in *. set (Q := 2 ^ (64 - n)) in *.
  replace ((x * W + y) * P) with (x * P * W + y * P) by ring. rewrite Z.div_add_l by lia.
  replace (y * P / W) with (y / Q) by (rewrite <- HPQ, (Z.mul_comm P Q), Z.div_mul_cancel_r; lia).
  assert (Hc : 0 <= y / Q < P) by (split; [apply Z.div_pos | apply Z.div_lt_upper_bound]; nia).
  assert (Ham : ((x * P) mod W) mod P = 0) by (rewrite <- HPQ, Z.mul_comm, Z.mul_mod_distr_l, Z.mul_comm by lia; apply Z.mod_mul; lia).
  rewrite (lor_add_disjoint _ _ n) by (lia || assumption).
  rewrite <- Zplus_mod_idemp_l. symmetry. apply Z.mod_small.
  pose proof (Z.mod_pos_bound (x * P) W ltac:(lia)). set (a := (x * P) mod W) in *.
  pose proof (Z.div_mod a P ltac:(lia)) as E. rewrite Ham, Z.add_0_r in E. assert (a / P < Q) by (apply Z.div_lt_upper_bound; nia). nia.
Qed.

Lemma LeftShift_mid u n : wf u -> 0 < n < 64 -> wf (LeftShift u n) /\ uval (LeftShift u n) = (uval u * 2 ^ n) mod P128.
Proof.
  intros [Hh Hl] Hn. unfold LeftShift. rewrite (proj2 (Z.eqb_neq n 0)), (proj2 (Z.ltb_ge 64 n)), (proj2 (Z.ltb_lt n 64)) by lia.
  rewrite funnel, shl_val by (assumption || lia). fold (uval u).
  assert (L : (uval u * 2 ^ n) mod W = (lo u * 2 ^ n) mod W).
  { unfold uval. replace ((hi u * W + lo u) * 2 ^ n) with (lo u * 2 ^ n + hi u * 2 ^ n * W) by ring. apply Z.mod_add. lia. }
  change P128 with (W * W). rewrite Z.rem_mul_r, L by lia.
  split; [apply wf_mk; apply Z.mod_pos_bound; lia|]. unfold uval at 1. cbn [hi lo]. lia.
Qed.

Theorem LeftShift_spec u n : wf u -> 0 <= n -> wf (LeftShift u n) /\ uval (LeftShift u n) = (uval u * 2 ^ n) mod P128.
Proof.
  intros Hu Hn. pose proof (uval_range u Hu) as R. pose proof Hu as [[Hh0 Hh1] [Hl0 Hl1]].
  destruct (Z.eq_dec n 0) as [->|Hn0].
  { unfold LeftShift. cbn [Z.eqb]. split; [exact Hu|]. rewrite Z.pow_0_r, Z.mul_1_r. symmetry. apply Z.mod_small. exact R. }
  destruct (Z_lt_le_dec n 64) as [Hlt|Hge]; [apply LeftShift_mid; [exact Hu | lia]|].
  unfold LeftShift. rewrite (proj2 (Z.eqb_neq n 0)) by lia.
  destruct (Z.ltb_spec 64 n) as [Hgt|Hle].
  - (* n > 64 *)
    destruct (Z_lt_le_dec (n - 64) 64) as [Hk|Hk].
    + rewrite shl_val by lia. unfold wf, uval. cbn [hi lo].
      pose proof (Z.mod_pos_bound (lo u * 2 ^ (n - 64)) W ltac:(lia)).
      split; [lia|]. rewrite Z.add_0_r.
      assert (E : 2 ^ n = 2 ^ (n - 64) * W) by (rewrite W_pow, <- Z.pow_add_r by lia; f_equal; lia).
      rewrite E. assert (0 < 2 ^ (n - 64)) by (apply Z.pow_pos_nonneg; lia).
      set (T := 2 ^ (n - 64)) in *.
      replace ((hi u * W + lo u) * (T * W)) with ((lo u * T) * W + (hi u * T) * P128) by lia.
      rewrite Z.mod_add by lia. change P128 with (W * W). rewrite Z.mul_mod_distr_r by lia. reflexivity.
    + rewrite shl_big by lia. unfold wf, uval. cbn [hi lo]. split; [lia|].
      assert (E : 2 ^ n = 2 ^ (n - 128) * P128) by (rewrite P128_pow, <- Z.pow_add_r by lia; f_equal; lia).
      rewrite E, Z.mul_assoc, Z.mod_mul by lia. reflexivity.
  - (* n = 64 *)
    assert (n = 64) by lia. subst n. rewrite (proj2 (Z.ltb_ge 64 64)) by lia. unfold wf, uval. cbn [hi lo]. split; [lia|].
    rewrite <- W_pow. replace ((hi u * W + lo u) * W) with (lo u * W + hi u * P128) by lia. rewrite Z.mod_add by lia.
    rewrite Z.add_0_r. symmetry. apply Z.mod_small. lia.
Qed.

Lemma RightShift_mid u n : wf u -> 0 < n < 64 -> wf (RightShift u n) /\ uval (RightShift u n) = uval u / 2 ^ n.
Proof.
  intros [Hh Hl] Hn. unfold RightShift. rewrite (proj2 (Z.eqb_neq n 0)), (proj2 (Z.ltb_ge 64 n)), (proj2 (Z.ltb_lt n 64)) by lia.
  replace (shr (lo u) n) with (shr (lo u) (64 - (64 - n))) by (f_equal; lia).
  rewrite Z.lor_comm, funnel, shr_val by (assumption || lia). fold (uval u).
  destruct (pow_split n ltac:(lia)) as (HPQ & HP & HQ).
  replace (uval u * 2 ^ (64 - n) / W) with (uval u / 2 ^ n) by (rewrite <- HPQ, Z.div_mul_cancel_r; lia).
  assert (E : uval u / 2 ^ n / W = hi u / 2 ^ n).
  { rewrite !Z.div_div, (Z.mul_comm (2 ^ n)), <- Z.div_div by lia. f_equal. unfold uval. rewrite Z.div_add_l, Z.div_small; lia. }
  pose proof (Z.div_mod (uval u / 2 ^ n) W ltac:(lia)) as D. rewrite E in D.
  assert (0 <= hi u / 2 ^ n < W) by (split; [apply Z.div_pos | apply Z.div_lt_upper_bound]; nia).
  split; [apply wf_mk; [assumption | apply Z.mod_pos_bound; lia]|]. unfold uval at 1. cbn [hi lo]. lia.
Qed.

Theorem RightShift_spec u n : wf u -> 0 <= n -> wf (RightShift u n) /\ uval (RightShift u n) = uval u / 2 ^ n.
Proof.
  intros Hu Hn. pose proof (uval_range u Hu) as R. pose proof Hu as [[Hh0 Hh1] [Hl0 Hl1]].
  destruct (Z.eq_dec n 0) as [->|Hn0].
  { unfold RightShift. cbn [Z.eqb]. split; [exact Hu|]. rewrite Z.pow_0_r, Z.div_1_r. reflexivity. }
  destruct (Z_lt_le_dec n 64) as [Hlt|Hge]; [apply RightShift_mid; [exact Hu | lia]|].
  unfold RightShift. rewrite (proj2 (Z.eqb_neq n 0)) by lia.
  assert (E : 2 ^ n = W * 2 ^ (n - 64)) by (rewrite W_pow, <- Z.pow_add_r by lia; f_equal; lia).
  assert (HT : 0 < 2 ^ (n - 64)) by (apply Z.pow_pos_nonneg; lia).
  assert (Hdiv : uval u / 2 ^ n = hi u / 2 ^ (n - 64)).
  { rewrite E, <- Z.div_div by lia. f_equal. unfold uval. rewrite Z.add_comm, Z.div_add by lia. rewrite Z.div_small by lia. lia. }
  destruct (Z.ltb_spec 64 n) as [Hgt|Hle].
  - destruct (Z_lt_le_dec (n - 64) 64) as [Hk|Hk].
    + rewrite shr_val by lia. rewrite Hdiv. unfold wf, uval. cbn [hi lo].
      assert (0 <= hi u / 2 ^ (n - 64) < W) by (split; [apply Z.div_pos; lia | apply Z.div_lt_upper_bound; nia]). split; lia.
    + rewrite shr_big by lia. rewrite Hdiv. unfold wf, uval. cbn [hi lo]. split; [lia|].
      symmetry. apply Z.div_small. split; [lia|]. apply Z.lt_le_trans with W; [lia|]. rewrite W_pow. apply Z.pow_le_mono_r; lia.
  - assert (n = 64) by lia. subst n. rewrite (proj2 (Z.ltb_ge 64 64)) by lia. rewrite Hdiv. unfold wf. cbn [hi lo]. split; [lia|].
    change (2 ^ (64 - 64)) with 1. rewrite Z.div_1_r. unfold uval. cbn [hi lo]. lia.
Qed.
