(* C01 — division, part 3: Int128. Quotient truncated toward zero, remainder with the dividend's sign (Go's / and %), reduced into
   the two's-complement range (only MinInt128 / -1 is affected by the reduction). *)
From Coq Require Import ZArith Bool Lia.
From Verif Require Import common.Word64 common.Word64Facts C01.Model C01.ProofsArith C01.ProofsInt C01.ProofsDiv2.
Open Scope Z_scope.

(* Go's / and % from the division of the magnitudes *)
Lemma quot_by_abs a b : b <> 0 -> (if xorb (a <? 0) (b <? 0) then - (Z.abs a / Z.abs b) else Z.abs a / Z.abs b) = Z.quot a b.
Proof.
  intro Hb. rewrite <- Z.quot_div_nonneg, Z.quot_abs by lia. pose proof (Z.quot_div a b Hb) as E. pose proof (Z.div_pos (Z.abs a) (Z.abs b)).
  destruct (Z.ltb_spec a 0), (Z.ltb_spec b 0); cbn [xorb]; nia.
Qed.
Lemma rem_by_abs a b : b <> 0 -> (if a <? 0 then - (Z.abs a mod Z.abs b) else Z.abs a mod Z.abs b) = Z.rem a b.
Proof. intro Hb. rewrite (Z.rem_mod a b Hb). destruct (Z.ltb_spec a 0); [|destruct (Z.eq_dec a 0) as [->|]; [reflexivity|]]; lia. Qed.

Lemma ILessThan_zero i : wf i -> ILessThan i zero = (sval i <? 0).
Proof. intro W. destruct (Ipredicates_spec i zero W wf_zero) as (_ & _ & _ & L & _). exact L. Qed.
(* the operands are divided by magnitude: "if negative then Neg" is Abs, MinInt128 included *)
Lemma abs_operand i : wf i -> (if ILessThan i zero then Neg i else i) = Abs i.
Proof.
  intro W. rewrite (ILessThan_zero i W), <- (isneg_sval i W). unfold Abs, Neg. destruct (isneg i) eqn:N; [|reflexivity].
  rewrite lor_zero_uval by exact W. destruct (Z.eqb_spec (uval i) 0) as [Z0|_].
  - rewrite (isneg_uval i W), Z0 in N. discriminate.
  - cbn [orb]. destruct (Equal i MinI) eqn:EM; [apply Equal_MinI in EM; [subst i|exact W]|]; reflexivity.
Qed.
Lemma signed_of_unsigned q (neg : bool) : wf q ->
  let q' := if neg then Neg q else q in wf q' /\ sval q' = smod (if neg then - uval q else uval q).
Proof.
  intros W. destruct neg; cbn zeta; [|split; [exact W | apply sval_smod, W]].
  apply (signed_view _ _ _ (Neg_val q W)). reflexivity.
Qed.

Theorem IDivMod_spec i n : wf i -> wf n ->
  (sval n = 0 -> IDivMod i n = DivZero /\ IDiv i n = DivZero /\ IMod i n = DivZero) /\
  (sval n <> 0 -> exists q r, IDivMod i n = Ok (q, r) /\ IDiv i n = Ok q /\ IMod i n = Ok r /\ wf q /\ wf r /\
                  sval q = smod (Z.quot (sval i) (sval n)) /\ sval r = Z.rem (sval i) (sval n)).
Proof.
  intros Wi Wn. pose proof (sval_range n Wn) as Rn.
  unfold IMod, IDivMod, IDiv. rewrite !abs_operand, (ILessThan_zero i Wi), (ILessThan_zero n Wn) by assumption.
  destruct (Abs_val i Wi) as [Wi' Vi']. destruct (Abs_val n Wn) as [Wn' Vn']. destruct (DivMod_spec _ _ Wi' Wn') as [DZ DK]. split.
  - intro B0. destruct (DZ ltac:(lia)) as (E1 & E2 & _). rewrite E1, E2. repeat split.
  - intro B0. destruct (DK ltac:(lia)) as (q & r & E1 & E2 & _ & Wq & Wr & Vq & Vr & _ & Vlt). rewrite E1, E2. cbn [rmap fst snd].
    destruct (signed_of_unsigned q (xorb (sval i <? 0) (sval n <? 0)) Wq) as [Wq' Sq']. destruct (signed_of_unsigned r (sval i <? 0) Wr) as [Wr' Sr'].
    eexists _, _. do 5 (split; [reflexivity || assumption|]). rewrite Sq', Sr', Vq, Vr, Vi', Vn'. split.
    + f_equal. apply quot_by_abs, B0.
    + rewrite rem_by_abs by exact B0. apply smod_small. pose proof (Z.rem_bound_abs (sval i) (sval n) B0). lia.
Qed.

(* IDiv64 has its own code (the magnitude of n as a 64-bit word, then Div64); it is IDiv on the sign-extended operand *)
Lemma IDiv64_IDiv i n : wf i -> int64 n -> IDiv64 i n = IDiv i (From64 n).
Proof.
  intros Wi Hn. destruct (From64_spec n Hn) as [Wf Sf]. destruct (Abs_val i Wi) as [Wi' _]. destruct (Abs_val _ Wf) as [Wa Va].
  unfold IDiv64, IDiv, Div64. rewrite !abs_operand, (ILessThan_zero _ Wf), Sf in * by assumption. set (n' := if n <? 0 then wrap (- n) else n).
  assert (Hn' : w64 n' /\ n' = Z.abs n) by (unfold int64 in Hn; unfold n'; destruct (Z.ltb_spec n 0); rewrite ?wrap_small by (unfold w64; lia); unfold w64; lia).
  destruct Hn' as [Wn' Vn']. rewrite divgen64_divgen by (exact Wi' || apply Wn').
  replace (Abs (From64 n)) with (mk 0 n') by (apply uval_inj; [apply wf_mk0, Wn' | exact Wa | rewrite uval_mk0, Va; exact Vn']). reflexivity.
Qed.

Theorem IDivMod64_spec i n : wf i -> int64 n ->
  (n = 0 -> IDivMod64 i n = DivZero /\ IDiv64 i n = DivZero /\ IMod64 i n = DivZero) /\
  (n <> 0 -> exists q r, IDivMod64 i n = Ok (q, r) /\ IDiv64 i n = Ok q /\ IMod64 i n = Ok r /\ wf q /\ wf r /\
             sval q = smod (Z.quot (sval i) n) /\ sval r = Z.rem (sval i) n).
Proof.
  intros Wi Hn. destruct (From64_spec n Hn) as [Wf Sf]. pose proof (IDivMod_spec i (From64 n) Wi Wf) as H.
  rewrite Sf in H. rewrite (IDiv64_IDiv i n Wi Hn). exact H.
Qed.
